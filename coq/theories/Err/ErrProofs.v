(* C14 - proofs about Err/Loc.v, Err/Discipline.v, Err/Walk.v and the generated kind table. *)
From Coq Require Import List NArith Bool Arith Lia Decimal DecimalN.
From Coq Require String.
From Cddl Require Import Err.Loc Err.Discipline Err.Walk Err.Kinds Generated.ErrorKinds.
Import ListNotations.
Open Scope N_scope.

Lemma finish_ok_iff : forall (E : Type) (errs : list E), finish errs = ROk <-> errs = [].
Proof.
  intros E errs. now destruct errs.
Qed.

Lemma finish_err : forall (E : Type) (errs l : list E), finish errs = RErrValidation l -> l <> [] /\ l = errs.
Proof.
  intros E [|e r] l H; [discriminate H|]. injection H as <-. now split.
Qed.

Section Choice.
  Context {E : Type}.
  Implicit Types (alts : list (@visit E)) (errs base acc : list E).

  Definition suffixes alts : list E := concat (map (fun f => f []) alts).

  Lemma succeeds_nil : forall (f : @visit E), succeeds f = true <-> f [] = [].
  Proof.
    intro f. unfold succeeds. now destruct (f []).
  Qed.

  (* [base] is what the list held at the checkpoint, [acc] the reports of the alternatives that failed so far *)
  Lemma choice_loop_spec : forall alts base acc,
    Forall appender alts ->
    choice_loop (length base) alts (base ++ acc) =
      if existsb succeeds alts then base else base ++ acc ++ suffixes alts.
  Proof.
    induction alts as [|f rest IH]; intros base acc Happ.
    - cbn. now rewrite app_nil_r.
    - inversion Happ as [|f' rest' Hf Hrest]; subst.
      cbn [choice_loop existsb]. unfold checkpoint, truncate, succeeds at 1.
      rewrite (Hf (base ++ acc)). rewrite !app_length.
      destruct (f []) as [|e s] eqn:Hs; cbn [orb].
      + cbn [length]. rewrite Nat.add_0_r, Nat.eqb_refl, app_nil_r.
        rewrite firstn_app, Nat.sub_diag, firstn_all. cbn. apply app_nil_r.
      + replace (Nat.eqb _ _) with false by (symmetry; apply Nat.eqb_neq; cbn [length]; lia).
        rewrite <- app_assoc, (IH base (acc ++ e :: s) Hrest).
        unfold suffixes. cbn [map concat]. now rewrite Hs, <- !app_assoc.
  Qed.

  Lemma choice_spec : forall alts errs, Forall appender alts ->
    choice alts errs = if existsb succeeds alts then errs else errs ++ suffixes alts.
  Proof.
    intros alts errs Happ. unfold choice, checkpoint.
    pose proof (choice_loop_spec alts errs [] Happ) as H. now rewrite app_nil_r in H.
  Qed.

  Lemma choice_success : forall alts errs,
    Forall appender alts -> existsb succeeds alts = true -> choice alts errs = errs.
  Proof. intros alts errs Happ Hex. now rewrite choice_spec, Hex. Qed.

  Lemma choice_failure : forall alts errs,
    Forall appender alts -> existsb succeeds alts = false -> choice alts errs = errs ++ suffixes alts.
  Proof. intros alts errs Happ Hex. now rewrite choice_spec, Hex. Qed.

  Lemma choice_appender : forall alts, Forall appender alts -> appender (choice alts).
  Proof.
    intros alts Happ errs. rewrite !choice_spec by exact Happ.
    destruct (existsb succeeds alts); [now rewrite app_nil_r | reflexivity].
  Qed.

  (* when every alternative fails, something is reported *)
  Lemma suffixes_nonempty : forall alts, alts <> [] -> existsb succeeds alts = false -> suffixes alts <> [].
  Proof.
    intros [|f rest] Hne Hex; [now elim Hne|].
    cbn [existsb] in Hex. apply orb_false_iff in Hex as [Hf _].
    unfold suffixes. cbn [map concat]. unfold succeeds in Hf. destruct (f []); [discriminate Hf|discriminate].
  Qed.
End Choice.

Lemma split_slash_nonempty : forall s, exists p ps, split_slash s = p :: ps.
Proof.
  induction s as [|c r [p [ps IH]]]; cbn [split_slash].
  - now exists [], [].
  - destruct (c =? slash); [now exists [], (split_slash r)|]. rewrite IH. now exists (c :: p), ps.
Qed.

Lemma split_slash_app : forall a b, split_slash (a ++ slash :: b) = split_slash a ++ split_slash b.
Proof.
  induction a as [|c a IH]; intro b.
  - reflexivity.
  - change ((c :: a) ++ slash :: b) with (c :: (a ++ slash :: b)).
    cbn [split_slash]. destruct (c =? slash) eqn:Hc.
    + now rewrite IH.
    + rewrite IH. destruct (split_slash_nonempty a) as [p [ps Hp]]. now rewrite Hp.
Qed.

Lemma split_slash_noslash : forall k, no_slash_str k = true -> split_slash k = [k].
Proof.
  induction k as [|c k IH]; intro H; [reflexivity|].
  cbn [no_slash_str forallb] in H. apply andb_true_iff in H as [Hc Hk].
  cbn [split_slash]. apply negb_true_iff in Hc. rewrite Hc. now rewrite (IH Hk).
Qed.

Lemma uint_codes_no_slash : forall d, no_slash_str (uint_codes d) = true.
Proof. induction d; cbn [uint_codes no_slash_str forallb]; try reflexivity; exact IHd. Qed.

Lemma dec_no_slash : forall i, no_slash_str (dec i) = true.
Proof. intro i. apply uint_codes_no_slash. Qed.

Lemma seg_text_no_slash : forall s, no_slash_seg s = true -> no_slash_str (seg_text s) = true.
Proof. intros [k|i] H; cbn [seg_text]; [exact H|apply dec_no_slash]. Qed.

Definition pcs (l : loc) : list str := concat (map (fun s => split_slash (seg_text s)) l).

Lemma split_slash_render : forall r a, split_slash (a ++ render r) = split_slash a ++ pcs r.
Proof.
  induction r as [|s r IH]; intro a; cbn [render].
  - now rewrite !app_nil_r.
  - now rewrite split_slash_app, IH.
Qed.

Lemma split_render : forall l, split (render l) = Some (pcs l).
Proof.
  intros [|s r]; [reflexivity|]. cbn [render split]. rewrite N.eqb_refl. now rewrite split_slash_render.
Qed.

Lemma pcs_no_slash : forall l, no_slash l = true -> pcs l = map seg_text l.
Proof.
  induction l as [|s l IH]; intro H; [reflexivity|].
  cbn [no_slash forallb] in H. apply andb_true_iff in H as [Hs Hl].
  unfold pcs in *. cbn [map concat]. now rewrite (split_slash_noslash _ (seg_text_no_slash _ Hs)), (IH Hl).
Qed.

Lemma render_split : forall l, no_slash l = true -> split (render l) = Some (map seg_text l).
Proof. intros l H. now rewrite split_render, (pcs_no_slash l H). Qed.

Definition key_x_slash_y : str := [120; 47; 121].

Lemma render_split_refuted :
  exists l, split (render l) <> Some (map seg_text l) /\
  exists l', l <> l' /\ render l = render l'.
Proof.
  exists [SKey key_x_slash_y]. split; [vm_compute; discriminate|].
  exists [SKey [120]; SKey [121]]. split; [discriminate|reflexivity].
Qed.

Lemma codes_uint_codes : forall d, codes_uint (uint_codes d) = Some d.
Proof. induction d; cbn [uint_codes codes_uint]; try reflexivity; rewrite IHd; reflexivity. Qed.

Lemma uint_beq_refl : forall d, uint_beq d d = true.
Proof. induction d; cbn; auto. Qed.

Lemma parse_dec : forall i, parse_idx (dec i) = Some i.
Proof.
  intro i. unfold parse_idx, dec.
  (* [unorm d] is [N.to_uint (N.of_uint d)]: the numeral [N.to_uint i] is its own normal form *)
  now rewrite codes_uint_codes, <- Unsigned.to_of, !Unsigned.of_to, uint_beq_refl.
Qed.

Lemma focus_app : forall a b d, focus d (a ++ b) = match focus d a with Some c => focus c b | None => None end.
Proof.
  induction a as [|s a IH]; intros b d; [reflexivity|].
  rewrite <- app_comm_cons. cbn [focus]. destruct (child d s); [apply IH|reflexivity].
Qed.

Lemma resolves_prefix : forall d a b, resolves d (a ++ b) = true -> resolves d a = true.
Proof.
  intros d a b. unfold resolves. rewrite focus_app. destruct (focus d a); [reflexivity|discriminate].
Qed.

Lemma child_raw_of_child : forall d s c, child d s = Some c -> child_raw d (seg_text s) = Some c.
Proof.
  intros d [k|i] c H; destruct d; cbn [child] in H; try discriminate H; cbn [child_raw seg_text].
  - exact H.
  - now rewrite parse_dec.
Qed.

Lemma focus_raw_of_focus : forall l d c, focus d l = Some c -> focus_raw d (map seg_text l) = Some c.
Proof.
  induction l as [|s l IH]; intros d c H; [exact H|].
  cbn [focus] in H. destruct (child d s) as [c1|] eqn:Hc; [|discriminate H].
  cbn [map focus_raw]. rewrite (child_raw_of_child _ _ _ Hc). now apply IH.
Qed.

Lemma resolves_string_render : forall d l,
  no_slash l = true -> resolves d l = true -> resolves_string d (render l) = true.
Proof.
  intros d l Hns H. unfold resolves in H. destruct (focus d l) as [c|] eqn:Hf; [|discriminate H].
  unfold resolves_string. rewrite (render_split l Hns). now rewrite (focus_raw_of_focus _ _ _ Hf).
Qed.

Definition doc_slash_key : json := JObj [(key_x_slash_y, JNum)].

Lemma resolves_string_refuted :
  exists d l, resolves d l = true /\ resolves_string d (render l) = false.
Proof. exists doc_slash_key, [SKey key_x_slash_y]. split; vm_compute; reflexivity. Qed.

(* at an object the first piece is a whole key, or the beginning of a key that goes on after the next '/' *)
Lemma amb_obj : forall p rest m,
  amb_pieces (p :: rest) (JObj m) =
  match lookup p m with Some c => amb_pieces rest c | None => false end
  || match rest with q :: rest' => amb_pieces ((p ++ slash :: q) :: rest') (JObj m) | [] => false end.
Proof. intros p [|q rest] m; reflexivity. Qed.

Lemma amb_arr : forall p rest l,
  amb_pieces (p :: rest) (JArr l) =
  match parse_idx p with
  | Some i => match nthN l i with Some c => amb_pieces rest c | None => false end
  | None => false
  end.
Proof. reflexivity. Qed.

(* the pieces of a key k are re-joined, whatever stands before them ([pfx]) in the first piece *)
Lemma amb_key : forall m c rest k pfx p ps,
  split_slash k = p :: ps -> lookup (pfx ++ k) m = Some c -> amb_pieces rest c = true ->
  amb_pieces ((pfx ++ p) :: ps ++ rest) (JObj m) = true.
Proof.
  intros m c rest. induction k as [|x k IH]; intros pfx p ps H Hl Ha; cbn [split_slash] in H.
  - injection H as <- <-. now rewrite app_nil_l, amb_obj, Hl, Ha.
  - destruct (split_slash_nonempty k) as [p' [ps' Hp]]. rewrite Hp in H.
    specialize (IH (pfx ++ [x]) p' ps' Hp). rewrite <- !app_assoc in IH. specialize (IH Hl Ha).
    destruct (x =? slash) eqn:Hx; injection H as <- <-; [|exact IH].
    apply N.eqb_eq in Hx. subst x. rewrite <- app_comm_cons, app_nil_r, amb_obj. apply orb_true_iff. right. exact IH.
Qed.

Lemma amb_child : forall d s c rest,
  child d s = Some c -> amb_pieces rest c = true -> amb_pieces (split_slash (seg_text s) ++ rest) d = true.
Proof.
  intros d [k|i] c rest Hc Ha; destruct d; cbn [child] in Hc; try discriminate Hc; cbn [seg_text].
  - destruct (split_slash_nonempty k) as [p [ps Hp]]. rewrite Hp. exact (amb_key m c rest k [] p ps Hp Hc Ha).
  - rewrite (split_slash_noslash _ (dec_no_slash i)). change ([dec i] ++ rest) with (dec i :: rest).
    rewrite amb_arr, parse_dec, Hc. exact Ha.
Qed.

Lemma amb_of_focus : forall l d c rest,
  focus d l = Some c -> amb_pieces rest c = true -> amb_pieces (pcs l ++ rest) d = true.
Proof.
  induction l as [|s l IH]; intros d c rest Hf Ha.
  - injection Hf as <-. exact Ha.
  - cbn [focus] in Hf. destruct (child d s) as [c1|] eqn:Hc; [|discriminate Hf].
    change (pcs (s :: l)) with (split_slash (seg_text s) ++ pcs l). rewrite <- app_assoc.
    exact (amb_child d s c1 _ Hc (IH c1 c rest Hf Ha)).
Qed.

Lemma resolves_amb_render : forall d l, resolves d l = true -> resolves_amb d (render l) = true.
Proof.
  intros d l H. unfold resolves in H. destruct (focus d l) as [c|] eqn:Hf; [|discriminate H].
  unfold resolves_amb. rewrite split_render.
  rewrite <- (app_nil_r (pcs l)). now apply (amb_of_focus l d c []).
Qed.

Lemma run_appender : forall w cur l, appender (run w cur l).
Proof.
  induction w as [|r|a IHa b IHb|k body IH|i body IH|a IHa b IHb]; intros cur l errs; cbn [run].
  - now rewrite app_nil_r.
  - reflexivity.
  - rewrite (IHb cur l (run a cur l errs)), (IHa cur l errs), (IHb cur l (run a cur l [])). now rewrite app_assoc.
  - destruct (child cur (SKey k)); reflexivity.
  - destruct (child cur (SIdx i)); [reflexivity|now rewrite app_nil_r].
  - apply choice_appender. repeat constructor; [apply IHa|apply IHb].
Qed.

Lemma alt_appenders : forall a b cur l, Forall appender [run a cur l; run b cur l].
Proof. intros. repeat constructor; apply run_appender. Qed.

Lemma run_alt : forall a b cur l errs,
  run (WAlt a b) cur l errs =
  match run a cur l [], run b cur l [] with
  | [], _ | _, [] => errs
  | ea, eb => errs ++ ea ++ eb
  end.
Proof.
  intros a b cur l errs. cbn [run]. rewrite (choice_spec _ errs (alt_appenders a b cur l)).
  unfold suffixes, succeeds. cbn [existsb map concat]. rewrite app_nil_r.
  destruct (run a cur l []), (run b cur l []); reflexivity.
Qed.

(* a successful alternative leaves no trace of a failed one *)
Lemma alt_no_leak : forall a b cur l errs,
  run a cur l [] = [] \/ run b cur l [] = [] -> run (WAlt a b) cur l errs = errs.
Proof.
  intros a b cur l errs H. rewrite run_alt. destruct H as [-> | ->]; [|destruct (run a cur l [])]; reflexivity.
Qed.

(* when both fail, both reports are kept, in order, and nothing else changes *)
Lemma alt_all_fail : forall a b cur l errs,
  run a cur l [] <> [] -> run b cur l [] <> [] ->
  run (WAlt a b) cur l errs = errs ++ run a cur l [] ++ run b cur l [].
Proof.
  intros a b cur l errs Ha Hb. rewrite run_alt.
  destruct (run a cur l []); [now elim Ha|]. destruct (run b cur l []); [now elim Hb|]. reflexivity.
Qed.

(* [e] was recorded at the node [cur] (whose location is [l]) or below it, along segments that exist in the document
   and, when [ns] holds, are free of '/'; [ns] stands for [walk_no_slash] of the walk that recorded [e] *)
Definition under (ns : bool) (cur : json) (l : loc) (e : entry) : Prop :=
  exists sfx, fst e = l ++ sfx /\ resolves cur sfx = true /\ (ns = true -> no_slash sfx = true).

Lemma under_here : forall ns cur l r, under ns cur l (l, r).
Proof. intros ns cur l r. exists []. now rewrite app_nil_r. Qed.

Lemma under_child : forall ns cur l s c e, child cur s = Some c ->
  under ns c (l ++ [s]) e -> under (no_slash_seg s && ns) cur l e.
Proof.
  intros ns cur l s c e Hc (sfx & He & Hr & Hn). exists (s :: sfx). split; [now rewrite He, <- app_assoc|].
  unfold resolves in *. cbn [focus]. rewrite Hc. split; [exact Hr|].
  intros H. apply andb_true_iff in H as [Hs Hw]. apply andb_true_iff. split; [exact Hs|exact (Hn Hw)].
Qed.

Lemma under_either : forall na nb cur l e, under na cur l e \/ under nb cur l e -> under (na && nb) cur l e.
Proof.
  intros na nb cur l e [(sfx & He & Hr & Hn)|(sfx & He & Hr & Hn)]; exists sfx; (split; [exact He|split; [exact Hr|]]);
    intros H; apply andb_true_iff in H as [Ha Hb]; auto.
Qed.

Lemma run_under : forall w cur l e, In e (run w cur l []) -> under (walk_no_slash w) cur l e.
Proof.
  induction w as [|r|a IHa b IHb|k body IH|i body IH|a IHa b IHb]; intros cur l e Hin; cbn [run] in Hin.
  - destruct Hin.
  - destruct Hin as [<-|[]]. apply under_here.
  - rewrite run_appender in Hin. apply under_either.
    apply in_app_or in Hin as [H|H]; [left; apply IHa|right; apply IHb]; exact H.
  - destruct (child cur (SKey k)) as [c|] eqn:Hc.
    + exact (under_child _ _ _ _ _ _ Hc (IH _ _ _ Hin)).
    + destruct Hin as [<-|[]]. apply under_here.
  - destruct (child cur (SIdx i)) as [c|] eqn:Hc; [|destruct Hin].
    exact (under_child _ _ _ _ _ _ Hc (IH _ _ _ Hin)).
  - rewrite (choice_spec _ _ (alt_appenders a b cur l)) in Hin. destruct (existsb _ _); [destruct Hin|].
    unfold suffixes in Hin. simpl in Hin. rewrite app_nil_r in Hin. apply under_either.
    apply in_app_or in Hin as [H|H]; [left; apply IHa|right; apply IHb]; exact H.
Qed.

Lemma validate_under : forall w doc es,
  validate w doc = RErrValidation es -> Forall (under (walk_no_slash w) doc []) es.
Proof.
  intros w doc es H. apply finish_err in H as [_ ->]. apply Forall_forall. intro e. apply run_under.
Qed.

Theorem loc_invariant : forall w doc es,
  validate w doc = RErrValidation es ->
  Forall (fun e : entry => resolves doc (fst e) = true) es.
Proof.
  intros w doc es H. eapply Forall_impl; [|exact (validate_under w doc es H)].
  intros e (sfx & -> & Hr & _). exact Hr.
Qed.

Theorem loc_invariant_string : forall w doc es,
  walk_no_slash w = true ->
  validate w doc = RErrValidation es ->
  Forall (fun e : entry => resolves_string doc (render (fst e)) = true) es.
Proof.
  intros w doc es Hw H. eapply Forall_impl; [|exact (validate_under w doc es H)].
  intros e (sfx & -> & Hr & Hn). exact (resolves_string_render doc sfx (Hn Hw) Hr).
Qed.

Theorem loc_invariant_amb : forall w doc es,
  validate w doc = RErrValidation es ->
  Forall (fun e : entry => resolves_amb doc (render (fst e)) = true) es.
Proof.
  intros w doc es H. eapply Forall_impl; [|exact (loc_invariant w doc es H)].
  intros e. apply resolves_amb_render.
Qed.

(* the full-strength string statement fails for a key containing '/' *)
Definition walk_slash_key : walk := WKey key_x_slash_y (WEmit 1).

Lemma loc_invariant_string_refuted :
  exists w doc es, validate w doc = RErrValidation es /\
  exists e, In e es /\ resolves_string doc (render (fst e)) = false.
Proof.
  exists walk_slash_key, doc_slash_key, [([SKey key_x_slash_y], 1)].
  split; [vm_compute; reflexivity|]. eexists. split; [left; reflexivity|vm_compute; reflexivity].
Qed.

(* purity: a call is a function of (schema trace, document) *)
Lemma validate_deterministic : forall w doc r1 r2, validate w doc = r1 -> validate w doc = r2 -> r1 = r2.
Proof. intros w doc r1 r2 <- <-. reflexivity. Qed.

(* both public entry points keep the three failure classes apart *)
Lemma kinds_distinct_both : kinds_distinct json_kind = true /\ kinds_distinct cbor_kind = true.
Proof. split; vm_compute; reflexivity. Qed.

Lemma kinds_not_confused : forall c, confused_with json_kind c = [] /\ confused_with cbor_kind c = [].
Proof. intros [| |]; split; vm_compute; reflexivity. Qed.

Lemma kinds_are_variants :
  forallb (fun c => existsb (String.eqb (json_kind c)) json_variants) all_classes = true /\
  forallb (fun c => existsb (String.eqb (cbor_kind c)) cbor_variants) all_classes = true.
Proof. split; vm_compute; reflexivity. Qed.
