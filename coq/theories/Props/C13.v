(* C13 - CSV validation equals JSON validation of the draft's data-model mapping.
   Only statements closed by [exact]; the model is in Csv/Reader.v and Csv/Coerce.v, the
   specification (RFC 4180 writer, number spellings, finiteness) in Csv/Spec.v, the proofs in
   Csv/ReaderProofs.v and Csv/CoerceProofs.v. *)
From Cddl Require Import Base.Bytes Csv.Reader Csv.Coerce Csv.Spec Csv.ReaderProofs Csv.CoerceProofs.
Open Scope N_scope.

(* ---------- the record reader ---------- *)

(* the reader model always answers (the epsilon-closure bound is never hit) *)
Theorem C13_read_total : forall bs, read_csv bs <> None.
Proof. exact read_csv_total. Qed.

(* Full statement (FALSE of the faithful model, see C13_csv_roundtrip_refuted):
     forall st rows, nonempty_records rows = true -> read_csv (write_csv4180 st rows) = Some rows.
   It holds for all rows of all fields (any bytes: quotes, commas, CR, LF, non-ASCII), ragged
   or not, CRLF or LF, with or without the final line break, minimal or full quoting, outside
   the class excluded by the boolean [rt_ok]: a record made of one empty field must be
   written quoted, and the text must not begin with the UTF-8 signature. *)
Theorem C13_csv_roundtrip_partial : forall st rows, rt_ok st rows = true ->
  read_csv (write_csv4180 st rows) = Some rows.
Proof. exact csv_roundtrip_partial. Qed.

Theorem C13_csv_roundtrip_refuted :
  (exists st rows, nonempty_records rows = true /\ read_csv (write_csv4180 st rows) <> Some rows)
  /\ read_csv (write_csv4180 style_min [[[]]]) = Some []
  /\ read_csv (write_csv4180 style_min [[[239; 187; 191; 97]]]) = Some [[[97]]].
Proof. exact csv_roundtrip_refuted. Qed.

(* ---------- the coercion ---------- *)

(* a field becomes a number exactly when it is a number spelling with a finite value *)
Theorem C13_coerce_number_iff : forall f,
  is_number (coerce_field f) = true <-> exists neg D e, spells f neg D e /\ dec_finite D e.
Proof. exact coerce_number_iff. Qed.

(* ... and stays the same text otherwise *)
Theorem C13_coerce_text_otherwise : forall f,
  is_number (coerce_field f) = false -> coerce_field f = JStr f.
Proof. exact coerce_text_otherwise. Qed.

(* integer spellings in [-2^63, 2^64) become that integer, exactly (u64 first, then i64) *)
Theorem C13_coerce_int_value : forall f z, int_spelling f z -> (- 2 ^ 63 <= z < 2 ^ 64)%Z ->
  coerce_field f = json_int z.
Proof. exact coerce_int_value. Qed.

Theorem C13_coerce_int_sound : forall f,
  (forall n, coerce_field f = JU n -> int_spelling f (Z.of_N n) /\ n < 2 ^ 64) /\
  (forall z, coerce_field f = JI z -> int_spelling f z /\ (- 2 ^ 63 <= z < 0)%Z).
Proof. exact coerce_int_sound. Qed.

(* a float carries the decimal the field spells; it is finite; the field is not an integer
   spelling in the u64/i64 range *)
Theorem C13_coerce_float_sound : forall f neg D e, coerce_field f = JF neg D e ->
  spells f neg D e /\ dec_finite D e /\
  ~ (exists z, int_spelling f z /\ (- 2 ^ 63 <= z < 2 ^ 64)%Z).
Proof. exact coerce_float_sound. Qed.

(* any byte outside 0-9 + - . e E keeps the field textual: hexadecimal and binary prefixes,
   inf / infinity / nan in any case, digit separators, blanks, non-ASCII digits *)
Theorem C13_coerce_foreign_char_text : forall f,
  forallb num_char f = false -> coerce_field f = JStr f.
Proof. exact coerce_foreign_char_text. Qed.

(* the grammar is decidable, by the model's own float parser *)
Theorem C13_number_spelling_dec : forall f, number_spelling f <-> number_spellingb f = true.
Proof. exact number_spelling_dec. Qed.

(* the model's finiteness test is the rational comparison with (2^54 - 1) * 2^970 *)
Theorem C13_finite_guard : forall nd D e, (Z.of_N D < 10 ^ Z.of_nat nd)%Z ->
  (f64_finiteb nd D e = true <-> dec_finite D e).
Proof. exact f64_finiteb_spec. Qed.

(* ---------- the mapping ---------- *)

Theorem C13_header_textual : forall r rs,
  map_csv true (r :: rs) = JArr (text_row r :: map coerce_row rs).
Proof. exact header_textual. Qed.

Theorem C13_no_header_all_coerced : forall rows, map_csv false rows = JArr (map coerce_row rows).
Proof. exact no_header_all_coerced. Qed.

Theorem C13_map_csv_shape : forall hdr rows, exists l : list (list json),
  map_csv hdr rows = JArr (map JArr l) /\ map (@length _) l = map (@length _) rows /\
  forallb (forallb scalar) l = true.
Proof. exact map_csv_shape. Qed.

(* ---------- validation ---------- *)
(* validate_csv is, by definition of the model (as in the code), the JSON validator applied to
   the mapped document with the same schema and the same options; the reader never fails *)
Theorem C13_csv_is_json_of_map :
  forall (schema options : Type) (validate_json : schema -> options -> json -> bool)
         (sc : schema) (opts : options) (text : list N) (hdr : bool),
  exists rows, read_csv text = Some rows /\
    validate_csv schema options validate_json sc opts text hdr = validate_json sc opts (map_csv hdr rows).
Proof. exact csv_is_json_of_map. Qed.

(* ================= Examples (non-vacuity, interpretive decisions) ================= *)

(* rows with quotes, commas, CR, LF, CRLF, non-ASCII, empty fields, ragged widths, a quoted
   lone empty field: hypotheses of the round trip hold, in the four line-break styles *)
Definition ex_rows : list (list (list N)) :=
  [ [[110; 97; 109; 101]; [113; 34; 117; 111; 116; 101]; []];
    [[97; 44; 98]; [108; 49; 13; 10; 108; 50]; [195; 169]; [49; 48]];
    [[]; []];
    [[13]; [10]; [34; 34]] ].
Example C13_ex_rt_ok :
  rt_ok {| crlf := true; final_break := true; quote_all := false |} ex_rows = true /\
  rt_ok {| crlf := false; final_break := false; quote_all := false |} ex_rows = true /\
  rt_ok {| crlf := false; final_break := true; quote_all := true |} (ex_rows ++ [[[]]]) = true.
Proof. vm_compute. repeat split. Qed.
Example C13_ex_roundtrip :
  read_csv (write_csv4180 {| crlf := false; final_break := false; quote_all := false |} ex_rows)
  = Some ex_rows.
Proof. vm_compute. reflexivity. Qed.
Example C13_ex_lone_empty_quoted : read_csv (write_csv4180 style_quoted [[[]]]) = Some [[[]]].
Proof. exact lone_empty_quoted_ok. Qed.

(* borderline spellings: all of these ARE number spellings (follows the code; the property
   text is silent).  "+3" "007" ".5" "5." "-0" "1e5" "1E+5" "1.e3" *)
Example C13_ns_plus3 : number_spelling [43; 51] /\ coerce_field [43; 51] = JU 3.
Proof. split; [apply number_spelling_dec|]; vm_compute; reflexivity. Qed.
Example C13_ns_007 : number_spelling [48; 48; 55] /\ coerce_field [48; 48; 55] = JU 7.
Proof. split; [apply number_spelling_dec|]; vm_compute; reflexivity. Qed.
Example C13_ns_dot5 : number_spelling [46; 53] /\ coerce_field [46; 53] = JF false 5 (-1).
Proof. split; [apply number_spelling_dec|]; vm_compute; reflexivity. Qed.
Example C13_ns_5dot : number_spelling [53; 46] /\ coerce_field [53; 46] = JF false 5 0.
Proof. split; [apply number_spelling_dec|]; vm_compute; reflexivity. Qed.
Example C13_ns_minus0 : number_spelling [45; 48] /\ coerce_field [45; 48] = JU 0.
Proof. split; [apply number_spelling_dec|]; vm_compute; reflexivity. Qed.
Example C13_ns_1e5 : number_spelling [49; 101; 53] /\ coerce_field [49; 101; 53] = JF false 1 5.
Proof. split; [apply number_spelling_dec|]; vm_compute; reflexivity. Qed.
Example C13_ns_1Eplus5 : number_spelling [49; 69; 43; 53] /\ coerce_field [49; 69; 43; 53] = JF false 1 5.
Proof. split; [apply number_spelling_dec|]; vm_compute; reflexivity. Qed.
Example C13_ns_1dote3 : number_spelling [49; 46; 101; 51] /\ coerce_field [49; 46; 101; 51] = JF false 1 3.
Proof. split; [apply number_spelling_dec|]; vm_compute; reflexivity. Qed.
(* a derivation written out by hand, independent of the model: "-.5e-3" *)
Example C13_ns_derivation : spells [45; 46; 53; 101; 45; 51] true 5 (-4).
Proof.
  apply (Spells [45] true [] [46; 53] [53] [101; 45; 51] (-3)%Z).
  - constructor.
  - reflexivity.
  - constructor. reflexivity.
  - discriminate.
  - apply (exp_some 101 [45] true [51]); [left; reflexivity | constructor | reflexivity | discriminate].
Qed.

(* NOT number spellings: "" "0x10" "NaN" "inf" "-inf" "Infinity" "1_0" "e5" "-" "+" "." "1e"
   "1e+" "0b1" " 7" "1,5" ; each stays the same text *)
Example C13_not_numbers :
  forallb (fun f => negb (number_spellingb f) && match coerce_field f with JStr g => eq_bytes f g | _ => false end)
    [ []; [48; 120; 49; 48]; [78; 97; 78]; [105; 110; 102]; [45; 105; 110; 102];
      [73; 110; 102; 105; 110; 105; 116; 121]; [49; 95; 48]; [101; 53]; [45]; [43]; [46];
      [49; 101]; [49; 101; 43]; [48; 98; 49]; [32; 55]; [49; 44; 53];
      [217; 161; 217; 162; 217; 163] ] = true.
Proof. vm_compute. reflexivity. Qed.

(* number spellings whose value is not finite stay text: "1e400"; tiny values are finite: "1e-400" *)
Example C13_1e400_text : number_spelling [49; 101; 52; 48; 48] /\ coerce_field [49; 101; 52; 48; 48] = JStr [49; 101; 52; 48; 48].
Proof. split; [apply number_spelling_dec|]; vm_compute; reflexivity. Qed.
Example C13_1em400_float : coerce_field [49; 101; 45; 52; 48; 48] = JF false 1 (-400).
Proof. vm_compute. reflexivity. Qed.

(* integer boundaries: 2^64-1 is a u64, 2^64 a float; -2^63 an i64, -2^63-1 a float *)
Example C13_u64_max :
  coerce_field [49;56;52;52;54;55;52;52;48;55;51;55;48;57;53;53;49;54;49;53] = JU 18446744073709551615 /\
  coerce_field [49;56;52;52;54;55;52;52;48;55;51;55;48;57;53;53;49;54;49;54] = JF false 18446744073709551616 0.
Proof. vm_compute. split; reflexivity. Qed.
Example C13_i64_min :
  coerce_field [45;57;50;50;51;51;55;50;48;51;54;56;53;52;55;55;53;56;48;56] = JI (-9223372036854775808) /\
  coerce_field [45;57;50;50;51;51;55;50;48;51;54;56;53;52;55;55;53;56;48;57] = JF true 9223372036854775809 0.
Proof. vm_compute. split; reflexivity. Qed.

(* end to end: "n,v" CRLF "007,1e5" CRLF with the header flag: the header row stays text *)
Example C13_ex_header :
  parse_csv_to_json [110; 44; 118; 13; 10; 48; 48; 55; 44; 49; 101; 53; 13; 10] true
  = Some (JArr [JArr [JStr [110]; JStr [118]]; JArr [JU 7; JF false 1 5]]) /\
  parse_csv_to_json [48; 48; 55; 13; 10; 48; 48; 55] true
  = Some (JArr [JArr [JStr [48; 48; 55]]; JArr [JU 7]]) /\
  parse_csv_to_json [48; 48; 55; 13; 10; 48; 48; 55] false
  = Some (JArr [JArr [JU 7]; JArr [JU 7]]).
Proof. vm_compute. repeat split. Qed.
