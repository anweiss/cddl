(* C07 - literals denote exactly the value RFC 8610 / 9682 / 4648 assign to them, or the document is rejected.
   Only statements closed by [exact]; models in Lit/{IntLit,TextLit,BytesLit,FloatLit}.v, the token grammar of
   cddl.pest in Lit/Grammar.v, the specification in Lit/Spec.v, proofs in Lit/*Proofs.v.
   "X_spelling s = true" is "the token grammar admits s as an X" (validated against the real pest parser on every
   run).  Option-valued on both sides: None on the left is a parse error, None on the right is "no RFC value". *)
From Cddl Require Import Base.Bytes Lit.IntLit Lit.Grammar Lit.TextLit Lit.BytesLit Lit.FloatLit Lit.Spec Lit.Render
  Lit.IntProofs Lit.TextProofs Lit.BytesProofs Lit.FloatProofs.
Open Scope N_scope.

(* ---- integers: decimal, 0x, 0b, case mixes; value or rejection at 2^64 / below -2^63 ---- *)
Theorem C07_uint_lit_ok : forall s, uint_spelling s = true -> parse_u64_lit s = uint_lit s.
Proof. exact uint_lit_ok. Qed.

(* the usize reader used for type positions, member keys, range bounds, control arguments, occurrence bounds *)
Theorem C07_uint_usize_ok : forall s, uint_spelling s = true -> parse_uint_lit s = uint_lit s.
Proof. exact uint_usize_ok. Qed.

Theorem C07_int_lit_ok : forall s, int_spelling s = true -> parse_int_lit s = int_lit s.
Proof. exact int_lit_ok. Qed.

(* ---- occurrence indicators: the string surgery of convert_occurrence yields the RFC bounds ---- *)
Theorem C07_occur_ok : forall s, occur_spelling s = true -> omap occur_sem (occur_model s) = occur_value s.
Proof. exact occur_ok. Qed.

(* ---- tag numbers, major types, simple values ---- *)
Theorem C07_tag_ok : forall s, tag_spelling s = true -> omap tag_sem (convert_tag_head s) = tag_value s.
Proof. exact tag_ok. Qed.

(* ---- text: every admitted text literal is stored with exactly its RFC 9682 value, and rejected exactly when it has
   none (lone / reversed surrogate escape, \u{...} that is not a Unicode scalar value); full since 51d94c0 ---- *)
Theorem C07_text_ok : forall tok, text_spelling tok = true -> text_value_model tok = text_lit tok.
Proof. exact text_ok. Qed.

(* the specification assigns values only to spellings the token grammar admits *)
Theorem C07_text_lit_grammar : forall tok v, text_lit tok = Some v -> text_spelling tok = true.
Proof. exact text_lit_grammar. Qed.

(* ---- h'...' : whitespace / comment removal + base16, on every admitted spelling (full since 320d006) ---- *)
Theorem C07_b16_ok : forall tok, bytes_b16_spelling tok = true -> bytes_b16_model tok = b16_lit tok.
Proof. exact b16_ok. Qed.

Theorem C07_hex_decode_base16 : forall s, hex_decode s = base16 s.
Proof. exact hex_decode_base16. Qed.

(* ---- b64'...' : either alphabet, optional canonical padding only at the end (full since 320d006, 951a310) ---- *)
Theorem C07_b64_ok : forall tok, bytes_b64_spelling tok = true -> bytes_b64_model tok = b64_lit tok.
Proof. exact b64_ok. Qed.

(* alphabet detection + padding-position check + choice among the four data_encoding decoders = RFC 4648 under
   either alphabet, on every input *)
Theorem C07_base64_decode_either : forall s, base64_decode s = base64_either s.
Proof. exact base64_decode_either. Qed.

(* decoding inverts the RFC 4648 encoding: the crate's decoder on every unpadded base64url encoding (the form the
   printer emits), and the specification's groups on the encodings of both alphabets *)
Theorem C07_b64_roundtrip : forall bs, wf_bytes bs -> base64_decode (base64_encode BASE64URL bs) = Some bs.
Proof. exact b64_roundtrip. Qed.

Theorem C07_spec_b64_decodes_encodings : forall bs, wf_bytes bs ->
  base64_groups BASE64 (base64_encode BASE64 bs) = Some bs
  /\ base64_groups BASE64URL (base64_encode BASE64URL bs) = Some bs.
Proof. exact spec_b64_decodes_encodings. Qed.

(* ---- '...' ----
   FULL STATEMENT (false, see C07_bytes_utf8_ok_refuted):
     forall tok, bytes_utf8_spelling tok = true -> Some (bytes_utf8_chars tok) = bytes_text_lit tok.
   Excluded class: Render.has_backslash. *)
Theorem C07_bytes_utf8_ok_partial : forall tok, bytes_utf8_spelling tok = true ->
  has_backslash (bytes_utf8_chars tok) = false -> Some (bytes_utf8_chars tok) = bytes_text_lit tok.
Proof. exact bytes_utf8_ok_partial. Qed.

Theorem C07_bytes_utf8_ok_refuted : exists tok,
  bytes_utf8_spelling tok = true /\ bytes_text_lit tok = Some [97; 92; 98] /\ bytes_utf8_chars tok = [97; 92; 92; 98].
Proof. exact bytes_utf8_ok_refuted. Qed.

(* ---- floats: finite or rejected (correct rounding itself is tied differentially, not proved); full since 4743917 ----
   a float literal is rejected exactly when its magnitude is >= 2^1024 - 2^970 (where round-to-nearest-even gives
   an infinity), stored as a finite value otherwise; an infinity is never stored *)
Theorem C07_float_overflow_decided : forall m e, overflows_exec m e = true <-> magnitude_overflows m e.
Proof. exact overflows_exec_spec. Qed.

Theorem C07_float_finite_or_rejected : forall s f, split_float s = Some f ->
  (magnitude_overflows (df_mantissa f) (df_exp10 f) -> float_model_class s = None)
  /\ (~ magnitude_overflows (df_mantissa f) (df_exp10 f) -> float_model_class s = Some FFinite).
Proof. exact float_finite_or_rejected. Qed.

Theorem C07_float_never_infinite : forall s, float_model_class s <> Some FInfinite.
Proof. exact float_never_infinite. Qed.

(* ---- non-vacuity: the hypotheses are satisfiable by non-trivial inputs ---- *)
Example C07_example_int :          (* 0XfF = 255; 2^64 is rejected although its value is defined; -0x8000000000000000 *)
  uint_spelling [48; 88; 102; 70] = true /\ parse_u64_lit [48; 88; 102; 70] = Some 255
  /\ uint_spelling [49;56;52;52;54;55;52;52;48;55;51;55;48;57;53;53;49;54;49;54] = true
  /\ parse_u64_lit [49;56;52;52;54;55;52;52;48;55;51;55;48;57;53;53;49;54;49;54] = None
  /\ int_spelling [45;48;120;56;48;48;48;48;48;48;48;48;48;48;48;48;48;48;48] = true
  /\ parse_int_lit [45;48;120;56;48;48;48;48;48;48;48;48;48;48;48;48;48;48;48] = Some (- 2 ^ 63)%Z.
Proof. vm_compute. repeat split; reflexivity. Qed.

Example C07_example_occur_tag :    (* 0x3*0b101 ; *5 ; 5* ; #6.0x20 *)
  occur_spelling [48;120;51;42;48;98;49;48;49] = true
  /\ occur_model [48;120;51;42;48;98;49;48;49] = Some (OExact (Some 3) (Some 5))
  /\ occur_model [42; 53] = Some (OExact None (Some 5)) /\ occur_model [53; 42] = Some (OExact (Some 5) None)
  /\ tag_spelling [35;54;46;48;120;50;48] = true /\ convert_tag_head [35;54;46;48;120;50;48] = Some (TTagged (Some 32)).
Proof. vm_compute. repeat split; reflexivity. Qed.

Example C07_example_text :         (* a, A, a surrogate pair, \u{1F073}, \n are stored; the escape in the second literal
                                      (a lone surrogate; the finding repaired by 51d94c0) makes it a parse error *)
  text_value_model [34; 97; 92;117;48;48;52;49; 92;117;68;56;51;67; 92;117;68;67;55;51; 92;117;123;49;70;48;55;51;125; 92;110; 34]
  = Some [97; 65; 127091; 127091; 10]
  /\ text_spelling [34; 92; 117; 100; 56; 48; 48; 34] = true /\ text_value_model [34; 92; 117; 100; 56; 48; 48; 34] = None
  /\ text_value_model [34; 92; 117; 68; 56; 48; 48; 92; 117; 48; 48; 52; 49; 34] = None
  /\ text_value_model [34; 92; 117; 123; 49; 49; 48; 48; 48; 48; 125; 34] = None.
Proof. vm_compute. repeat split; reflexivity. Qed.

Example C07_example_bytes :        (* h'0a ;c<LF> fF' ; b64 with base64url alphabet, a comment and padding ; mixed alphabets *)
  bytes_b16_spelling [104;39;48;97;32;59;99;10;32;102;70;39] = true
  /\ b16_lit [104;39;48;97;32;59;99;10;32;102;70;39] = Some [10; 255]
  /\ b64_lit [98;54;52;39; 45;95;56;32;59;99;10;32;61; 39] = Some [251; 255]
  /\ b64_lit [98;54;52;39; 43;47;56;61; 39] = Some [251; 255]
  /\ b64_lit [98;54;52;39; 43;95;56;61; 39] = None
  /\ bytes_b16_model [104; 39; 49; 50; 160; 51; 52; 39] = None                       (* h'12<U+00A0>34' *)
  /\ bytes_b64_model [98; 54; 52; 39; 89; 81; 61; 61; 89; 81; 61; 61; 39] = None     (* b64'YQ==YQ==' *)
  /\ float_spelling [49; 101; 57; 57; 57] = true /\ float_model_class [49; 101; 57; 57; 57] = None.   (* 1e999 *)
Proof. vm_compute. repeat split; reflexivity. Qed.
