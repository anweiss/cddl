(* C15 - source positions in the AST and in parse errors are accurate.
   Only statements closed by [exact]; proofs are in Pos/SpanProofs.v, Pos/ErrRangeProofs.v, Pos/TreeProofs.v.
   Models (of /repo after the fixes 2fbd55d, 837f856, 781e531):
   Pos/Span.v (pest_span_to_ast_span, pest_span_to_position, position_from_ast_span, pest's line_col),
   Pos/ErrRange.v (convert_pest_error, compute_error_range, scan_token_end, scan_token_start),
   Pos/Tree.v (pest's Start/End token queue, its reading as a pair tree, a recursive-descent matcher, typename). *)
From Cddl Require Import Base.Bytes Base.Utf8 Pos.Span Pos.ErrRange Pos.Tree
  Pos.SpanProofs Pos.BoundaryProofs Pos.ErrRangeProofs Pos.TreeProofs.
Open Scope N_scope.

(* ---------- AST spans ---------- *)
(* a span carries the 1-based line of its start: 1 + the number of line feeds before it *)
Theorem C15_line_is_newlines_before : forall bs s e,
  pest_span_to_ast_span bs s e = (s, e, 1 + count_nl (firstnN s bs)).
Proof. exact line_is_newlines_before. Qed.

(* a Position built from a span: index = start, range = the span, line as above, column = 1 + the number of
   characters (not bytes) since the last line feed; '\r' counts as a character *)
Theorem C15_column_is_chars_since_newline : forall bs s e,
  pest_span_to_position bs s e =
  mkPos (1 + count_nl (firstnN s bs)) (1 + nchars (line_tail (firstnN s bs))) (s, e) s.
Proof. exact column_is_chars_since_newline. Qed.

(* position_from_ast_span (duplicate-rule errors) recomputes exactly that position *)
Theorem C15_position_from_ast_span_agrees : forall bs s e,
  position_from_ast_span bs (pest_span_to_ast_span bs s e) = pest_span_to_position bs s e.
Proof. exact position_from_ast_span_agrees. Qed.

(* pest's own line_col (used when the error stays at pest's offset) is the same function, CRLF included *)
Theorem C15_pest_line_col_spec : forall bs pos,
  pest_line_col bs pos = (1 + count_nl (firstnN pos bs), 1 + nchars (line_tail (firstnN pos bs))).
Proof. exact pest_line_col_spec. Qed.

(* ---------- error positions ---------- *)
Theorem C15_err_range_non_inverted : forall bs index,
  fst (compute_error_range index bs) <= snd (compute_error_range index bs)
  /\ fst (compute_error_range index bs) <= index.
Proof. exact err_range_non_inverted. Qed.

Theorem C15_err_range_in_bounds : forall bs index, index <= lenN bs ->
  fst (compute_error_range index bs) <= snd (compute_error_range index bs)
  /\ snd (compute_error_range index bs) <= lenN bs
  /\ fst (compute_error_range index bs) <= index.
Proof. exact err_range_in_bounds. Qed.

Theorem C15_err_linecol_of_index : forall bs index,
  let p := convert_pest_error bs index in
  p_range p = compute_error_range index bs
  /\ p_index p = fst (p_range p)
  /\ p_line p = 1 + count_nl (firstnN (p_index p) bs)
  /\ p_column p = 1 + nchars (line_tail (firstnN (p_index p) bs)).
Proof. exact err_linecol_of_index. Qed.

(* the reported range (and with it the index) lies on character boundaries: full statement, every valid UTF-8
   text, every boundary offset.  (Refuted for the code before 2fbd55d: `a = é` gave (4,5), `a = ; é\n` (7,8).) *)
Theorem C15_err_range_on_char_boundary : forall bs index,
  utf8_valid bs = true -> index <= lenN bs -> char_boundary bs index = true ->
  char_boundary bs (fst (compute_error_range index bs)) = true
  /\ char_boundary bs (snd (compute_error_range index bs)) = true.
Proof. exact err_range_on_char_boundary. Qed.

(* ---------- pair trees ---------- *)
(* when a token queue whose positions never decrease and stay inside the text reads as a forest (its Start / End
   tokens match up), the forest has nested spans and ordered non-overlapping siblings, inside [0, len] *)
Theorem C15_tree_of_events_wf : forall len evs ts,
  tree_of_events evs = Some ts -> nondecr 0 evs = true -> bounded len evs = true ->
  flatten_forest ts = evs /\ forest_wf 0 len ts.
Proof. exact tree_of_events_wf. Qed.

(* the boolean test run by the oracle on the real AST's span tree is sound for that *)
Theorem C15_events_wfb_sound : forall len evs, events_wfb len evs = true ->
  exists ts, tree_of_events evs = Some ts /\ flatten_forest ts = evs /\ forest_wf 0 len ts.
Proof. exact events_wfb_sound. Qed.

(* every successful run of a recursive-descent matcher (any grammar, any expression) leaves such a queue *)
Theorem C15_run_tree_wf : forall f g e s s' p' evs,
  run f g e s 0 = Some (Some (s', p', evs)) ->
  exists ts, tree_of_events evs = Some ts /\ flatten_forest ts = evs /\ forest_wf 0 (lenN s) ts.
Proof. exact run_tree_wf. Qed.

(* identifier spans are exact: in the matcher of Pos/Tree.v, which never skips blanks on its own (what compound-atomic
   means for a pest rule), typename = ${ socket_type? ~ id } (id without inner pairs) yields a pair that is tiled by
   its children - `$` then the id, or the id alone - with nothing between the socket and the name and nothing after
   the name.  That cddl.pest's typename is such a rule is not part of the statement: the check compares the spans.
   (Before 837f856 the rule was non-atomic and `$ x` gave the typename span (0,3).) *)
Theorem C15_ident_span_exact : forall f g idbody s pos s' p' evs,
  no_rule idbody = true ->
  run f g (typename_of idbody) s pos = Some (Some (s', p', evs)) ->
  evs = [EStart pos; EStart pos; EEnd (pos + 1); EStart (pos + 1); EEnd p'; EEnd p']
  \/ evs = [EStart pos; EStart pos; EEnd p'; EEnd p'].
Proof. exact typename_span_exact. Qed.

(* ---------- non-vacuity ---------- *)
(* "a\r\nb\r\néc": the span (8,9) of `c` is on line 3, column 2 (é is one character of two bytes) *)
Example C15_example_position :
  pest_span_to_position [97; 13; 10; 98; 13; 10; 195; 169; 99] 8 9 = mkPos 3 2 (8, 9) 8
  /\ pest_span_to_ast_span [97; 13; 10; 98; 13; 10; 195; 169; 99] 8 9 = (8, 9, 3).
Proof. split; [exact (proj1 crlf_example) | vm_compute; reflexivity]. Qed.
(* "a = [\r\n  1,\r\n": pest fails at the end of input (13); the reported range moves back to the comma *)
Example C15_example_error :
  convert_pest_error [97; 32; 61; 32; 91; 13; 10; 32; 32; 49; 44; 13; 10] 13 = mkPos 2 4 (10, 11) 10.
Proof. vm_compute. reflexivity. Qed.
(* the former witnesses: `a = é` at 4 now gives (4,6); `a = ; é\n` at 9 gives index 6, column 7, range (6,8) *)
Example C15_example_boundary :
  utf8_valid [97; 32; 61; 32; 59; 32; 195; 169; 10] = true
  /\ compute_error_range 4 [97; 32; 61; 32; 195; 169] = (4, 6)
  /\ convert_pest_error [97; 32; 61; 32; 59; 32; 195; 169; 10] 9 = mkPos 1 7 (6, 8) 6.
Proof. split; [vm_compute; reflexivity | exact (conj (proj1 err_examples) (proj2 (proj2 err_examples)))]. Qed.
Example C15_example_tree :
  events_wfb 9 [EStart 0; EStart 0; EEnd 1; EStart 4; EStart 4; EEnd 7; EEnd 9; EEnd 9] = true
  /\ events_wfb 9 [EStart 0; EStart 4; EEnd 9; EStart 8; EEnd 9; EEnd 9] = false.
Proof. vm_compute. auto. Qed.
(* `$x` is a typename with span (0,2); `$ x` is not a typename *)
Example C15_example_typename :
  run 20 (fun _ => PEmpty) (typename_of lower_id) [36; 120] 0
  = Some (Some ([], 2, [EStart 0; EStart 0; EEnd 1; EStart 1; EEnd 2; EEnd 2]))
  /\ run 20 (fun _ => PEmpty) (typename_of lower_id) [36; 32; 120] 0 = Some None.
Proof. exact typename_examples. Qed.
