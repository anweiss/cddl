(* C12 - duplicate rule definitions and undefined references are always caught.
   Only statements closed by [exact]; proofs are in Rules/DupProofs.v and Rules/RefProofs.v.
   Models: Rules/Dup.v (duplicate check of convert_cddl), Rules/RefCheck.v
   (find_first_undefined_reference and the two entry points).  Specification: Rules/Spec.v. *)
From Cddl Require Import Rules.Doc Rules.Dup Rules.Spec Rules.RefCheck Rules.DupProofs Rules.RefProofs
  Generated.PreludeNames.

(* ---- duplicate definitions (rs : list of (printed name, plain "=" ?)) ---- *)

(* the check fails at i exactly when rule i is the FIRST plain definition whose name has an
   earlier definition of any operator *)
Theorem C12_dup_spec : forall rs i,
  dup_check rs = Some i <->
  (plain_at rs i /\ exists j, j < i /\ same_name rs j i) /\
  forall k, k < i -> ~ (plain_at rs k /\ exists j, j < k /\ same_name rs j k).
Proof. exact dup_spec. Qed.

(* the error message carries the name of that (later) definition *)
Theorem C12_dup_error_spec : forall rs i n,
  dup_error rs = Some (i, n) <-> first_dup_at rs i /\ exists p, nth_error rs i = Some (n, p).
Proof. exact dup_error_spec. Qed.

Theorem C12_dup_none : forall rs,
  dup_check rs = None <->
  forall i j n p, j < i -> nth_error rs i = Some (n, true) -> nth_error rs j = Some (n, p) -> False.
Proof. exact dup_none. Qed.

(* rejected exactly when some name receives a plain definition after an earlier definition *)
Theorem C12_dup_rejects_iff : forall rs,
  (exists i, dup_check rs = Some i) <->
  exists i j n p, j < i /\ nth_error rs i = Some (n, true) /\ nth_error rs j = Some (n, p).
Proof. exact dup_rejects_iff. Qed.

(* any number of "/=" and "//=" increments is accepted *)
Theorem C12_increments_free : forall rs, (forall i, ~ plain_at rs i) -> dup_check rs = None.
Proof. exact increments_free. Qed.

(* ---- the prelude table of the code is RFC 8610 Appendix D ---- *)
Theorem C12_prelude_table_ok : forall n, In n gen_prelude <-> In n rfc_prelude.
Proof. exact prelude_table_ok. Qed.

Theorem C12_prelude_table_count :
  nodup_b gen_prelude = true /\ length gen_prelude = 40 /\ length rfc_prelude = 40.
Proof. exact prelude_table_count. Qed.

(* ---- undefined references ---- *)

(* the walker reports exactly the FIRST reference in source order that is no $socket, no
   standard-prelude name, no generic parameter of its own rule, and not the name of any rule
   ("$x" / "$$x" heads do not define x) *)
Theorem C12_refcheck_spec : forall d i j n,
  refcheck d = Some (i, j, n) <-> FirstUnresolved d i j n.
Proof. exact refcheck_spec. Qed.

Theorem C12_refcheck_none_iff : forall d,
  refcheck d = None <-> forall i j, ~ UnresolvedAt d i j.
Proof. exact refcheck_none_iff. Qed.

(* the executable specification used as second oracle is the specification, and the model equals it *)
Theorem C12_spec_refcheck_spec : forall d i j n,
  spec_refcheck d = Some (i, j, n) <-> FirstUnresolved d i j n.
Proof. exact spec_refcheck_spec. Qed.

Theorem C12_spec_refcheck_none : forall d,
  spec_refcheck d = None <-> forall i j, ~ UnresolvedAt d i j.
Proof. exact spec_refcheck_none. Qed.

Theorem C12_refcheck_eq_spec : forall d, refcheck d = spec_refcheck d.
Proof. exact refcheck_eq_spec. Qed.

(* ---- the entry points ---- *)
Theorem C12_plain_parse_spec : forall d,
  match plain_parse d with
  | VDup i n => dup_verdict d i n
  | VOk k => k = length d /\ no_dup d
  | VUndef _ _ _ => False
  end.
Proof. exact plain_parse_spec. Qed.

Theorem C12_checked_parse_spec : forall d,
  match checked_parse d with
  | VDup i n => dup_verdict d i n
  | VUndef i j n => no_dup d /\ FirstUnresolved d i j n
  | VOk k => k = length d /\ no_dup d /\ forall i j, ~ UnresolvedAt d i j
  end.
Proof. exact checked_parse_spec. Qed.

(* ---- non-vacuity ---- *)
Local Open Scope N_scope.
(* a /= ..; a //= ..; $a = ..; a = ..  : rejected at the fourth rule (index 3), "$a" is another name *)
Example C12_example_dup :
  dup_error [([97], false); ([97], false); ([36; 97], true); ([97], true); ([97], true)] = Some (3%nat, [97]).
Proof. vm_compute. reflexivity. Qed.

Example C12_example_increments :
  dup_check [([97], true); ([97], false); ([98], false); ([97], false); ([98], false)] = None.
Proof. vm_compute. reflexivity. Qed.

(* a<t> = [t, int, $x, zz]   b = t : first unresolved is zz (rule 0, reference 3) *)
Example C12_example_ref :
  refcheck [ mkRule 0 [97] true [[116]] [mkRef false [116]; mkRef false [105; 110; 116]; mkRef true [120]; mkRef false [122; 122]];
             mkRule 0 [98] true [] [mkRef false [116]] ] = Some (0%nat, 3%nat, [122; 122]).
Proof. vm_compute. reflexivity. Qed.

(* generic parameters do not leak: a<t> = t  b = t *)
Example C12_example_scope :
  refcheck [ mkRule 0 [97] true [[116]] [mkRef false [116]]; mkRule 0 [98] true [] [mkRef false [116]] ]
  = Some (1%nat, 0%nat, [116]).
Proof. vm_compute. reflexivity. Qed.

(* regression witness of the repaired finding (a8c9ab3): $a = int  b = a  is rejected, naming a *)
Example C12_example_socket_head : refcheck socket_head_doc = Some (1%nat, 0%nat, [97]).
Proof. exact socket_head_rejected. Qed.

Example C12_example_render :
  c12_render socket_head_doc =
  [79; 75; 32; 50; 9; 85; 78; 68; 69; 70; 32; 49; 32; 48; 32; 97; 9; 85; 78; 68; 69; 70; 32; 49; 32; 48; 32; 97; 9; 49].
Proof. vm_compute. reflexivity. Qed.
