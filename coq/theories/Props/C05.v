(* C05 - no entry point panics, aborts, overflows the stack or hangs.
   Only statements closed by [exact]; models in Robust/{Chase,Occur,Alloc,Arith}.v and Cbor/Wire.v,
   proofs in Robust/RobustProofs.v and Cbor/DecodeProofs.v.

   What is proven is the LOGIC of termination, allocation and partial operations of the
   modelled code.  Stack exhaustion, allocator aborts and panics inside dependencies are
   runtime behaviour observed by running the real crate (lib/props/c05.py), not proven. *)
From Cddl Require Import Base.Bytes Cbor.Wire Cbor.DecodeProofs Generated.RobustConsts
  Robust.Chase Robust.Alloc Robust.Arith Robust.Occur Robust.RobustProofs.
Open Scope N_scope.

(* ---------- cyclic rule references terminate: the guarded is_ident_* recursion (d9284e7) ---------- *)
(* full statement: every environment, every helper, every start name *)
Theorem C05_chase_terminates : forall e hit n f, (chase_fuel e <= f)%nat -> chase hit f e n <> OutOfFuel.
Proof. exact chase_terminates. Qed.

Theorem C05_chase_seq_terminates : forall e hits n f, (chase_fuel e <= f)%nat -> chase_seq hits f e n <> OutOfFuel.
Proof. exact chase_seq_terminates. Qed.

(* termination is not a polynomial bound: acyclic, 41 rules, more than 2^40 calls (`any` has no memo) *)
Theorem C05_calls_exponential_refuted :
  exists e n, acyclic_alias e = true /\ length e = 41%nat /\ 2 ^ 40 <= calls e n.
Proof. exact calls_exponential_refuted. Qed.

(* ---------- occurrence bounds written in the schema do not drive the number of steps ---------- *)
(* seq_match_entry (json.rs / cbor.rs) with its zero-width stop as found in the source: at most one step per
   remaining element plus one, for every lower and upper bound and every entry that only consumes elements *)
Theorem C05_occurrence_loop_terminates : forall (A : Type) (once : list A -> option (list A)), consumes once ->
  forall f min max count cur, (length cur < f)%nat ->
  occ_loop (json_zero_width_stop && cbor_zero_width_stop) once f min max count cur <> OFuel.
Proof. exact @occ_loop_code_terminates. Qed.

(* why the stop must not depend on the bound: restricted to unbounded occurrences, every fuel is exhausted by some bound *)
Theorem C05_occurrence_loop_unstopped_refuted :
  exists once : list N -> option (list N), consumes once /\
    forall f, exists m, occ_loop false once f 0 (Some m) 0 [] = OFuel.
Proof. exact occ_loop_unstopped_refuted. Qed.

(* ---------- a length announced in a CBOR head is never trusted for allocation ---------- *)
Theorem C05_alloc_bounded : forall n inp r,
  In r (fst (read_len n inp)) -> r <= lenN inp + MAX_PREALLOC.
Proof. exact alloc_bounded. Qed.

Theorem C05_prealloc_capped : forall n r, In r (prealloc_requests n) -> r <= MAX_PREALLOC.
Proof. exact prealloc_capped. Qed.

Theorem C05_max_prealloc_small : MAX_PREALLOC <= 65536.
Proof. exact max_prealloc_small. Qed.

(* the chunked read returns exactly what the one-shot read of the C11 decoder model returns *)
Theorem C05_read_len_is_takeN : forall n inp,
  snd (read_len n inp) = match takeN n inp with Some (p, t) => Ok (p, t) | None => Err EEof end.
Proof. exact read_len_is_takeN. Qed.

(* ---------- the decoder model terminates within linear fuel (re-export of C11) ---------- *)
Theorem C05_decode_terminates : forall bs, wf_bytes bs ->
  (forall f, (2 * length bs + 1 <= f)%nat -> dec_item f bs <> Err EFuel) /\
  ((exists v, decode_cbor bs = Ok v) \/ (exists k, decode_cbor bs = Err k /\ k <> EFuel)).
Proof. exact decode_terminates. Qed.

(* ---------- checked arithmetic on the validation paths (fe9328d, 9c012db) ---------- *)
(* json.rs: n.checked_mul(1000) for prelude type `time` is None exactly on this class (-> validation error) *)
Theorem C05_mul1000_none_iff : forall n, in_i64 n = true ->
  (mul1000_checked n = None <-> mul1000_overflows n = true).
Proof. exact mul1000_none_iff. Qed.

(* cbor.rs: i64::try_from(value) for tag 1 under prelude type `time` *)
Theorem C05_try_into_i64_total : forall z, in_i64 z = true -> try_into_i64 z = Some z.
Proof. exact try_into_i64_total. Qed.

Theorem C05_try_into_i64_none_iff : forall z, try_into_i64 z = None <-> in_i64 z = false.
Proof. exact try_into_i64_none_iff. Qed.

(* json.rs / cbor.rs: `v as u32` of a .size argument *)
Theorem C05_as_u32_exact_iff : forall v, (0 <= v)%Z -> (as_u32 v = v <-> (v < 2 ^ 32)%Z).
Proof. exact as_u32_exact_iff. Qed.

Theorem C05_size_uint_exact : forall v i, (0 <= v < 16)%Z -> (size_uint_accepts v i = true <-> (i < 256 ^ v)%Z).
Proof. exact size_uint_exact. Qed.

Theorem C05_size_uint_refuted : exists v v', in_u64 v = true /\ in_u64 v' = true /\ (8 <= v)%Z /\ (8 <= v')%Z /\
  as_u32 v <> v /\ size_uint_accepts v 5 = false /\ as_u32 v' = v' /\ size_uint_accepts v' 5 = false.
Proof. exact size_uint_refuted. Qed.

(* control.rs plus_operation: checked_add on two literals of the schema; None -> Err *)
Theorem C05_plus_checked_total : forall a b, (0 <= a < 2 ^ 62)%Z -> (0 <= b < 2 ^ 62)%Z -> plus_checked a b = Some (a + b)%Z.
Proof. exact plus_checked_total. Qed.

Theorem C05_plus_checked_uint_none_iff : forall a b, (0 <= a)%Z -> (0 <= b)%Z ->
  (plus_checked a b = None <-> (2 ^ 64 <= a + b)%Z).
Proof. exact plus_checked_uint_none_iff. Qed.

(* ---------- non-vacuity ---------- *)
(* an alias environment with a choice, a chain and an undefined name *)
Example C05_chase_example :
  chase [100] 6 [(0, [Alias 1; Other]); (1, [Alias 2; Alias 3]); (2, [Other]); (3, [Alias 100])] 0 = Yes
  /\ chase [100] 6 [(0, [Alias 1; Other]); (1, [Alias 2; Alias 3]); (2, [Other]); (3, [Alias 9])] 0 = No.
Proof. vm_compute. split; reflexivity. Qed.

(* a = b .size 3 / b = a : overflowed the stack before the guard, answers "no" now; a cycle behind a hit is not reached *)
Example C05_cycle_example :
  acyclic_alias cyc2 = false /\ chase_seq size_hits (chase_fuel cyc2) cyc2 1 = No
  /\ chase [100] 3 [(0, [Alias 100; Alias 0])] 0 = Yes /\ chase [100] 3 [(0, [Alias 0; Alias 100])] 0 = Yes.
Proof. vm_compute. repeat split. Qed.

(* [0*18446744073709551615 (), int] against [1]: the empty group stops after one zero-width step *)
Example C05_occurrence_example :
  occ_loop true (fun l : list N => Some l) 3 0 (Some 18446744073709551615) 0 [1] = Matched [1]
  /\ occ_loop true (fun l : list N => match l with [] => None | _ :: r => Some r end) 4 2 (Some 5) 0 [7; 8; 9] = Matched []
  /\ occ_loop true (fun l : list N => Some l) 3 9999999999999 None 0 [] = Matched [].
Proof. vm_compute. repeat split. Qed.

(* a hostile head: 2^36 bytes announced, 3 present: one capped request, one failed chunk *)
Example C05_alloc_example :
  read_len 68719476736 [1; 2; 3] = ([4096; 4096], Err EEof)
  /\ read_len 3 [1; 2; 3; 4] = ([3; 3], Ok ([1; 2; 3], [4])).
Proof. vm_compute. split; reflexivity. Qed.
