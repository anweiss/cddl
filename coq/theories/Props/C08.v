(* C08 - naming, rule order, renaming, generic instantiation and "/=" increments are semantically transparent
   (over Sem.v).  The parser resolves generics, sockets and parentheses before validation; the model states what
   the validators must then be equivalent to, and the metamorphic run on the code ties them to it. *)
From Cddl Require Import Sem.Syntax Sem.Validator Sem.Sem Sem.Transparent Sem.Reach Sem.Rename Sem.Env Sem.Congr Sem.Subst.
From Coq Require Import Permutation.
Open Scope Z_scope.

(* replacing an expression by a reference to a rule defined as that expression / inlining a rule *)
Theorem C08_ref_unfold : forall jm e n t v, lookup_all e n = Some (DType t) ->
  (MatchT jm e (TRef n) v <-> MatchT jm e t v) /\ (FailT jm e (TRef n) v <-> FailT jm e t v).
Proof. exact ref_unfold. Qed.

Theorem C08_gref_unfold : forall jm e n g vs r, lookup_all e n = Some (DGroup g) ->
  (SeqOk jm e (GRef n) vs r <-> SeqOk jm e g vs r).
Proof. exact gref_unfold. Qed.

(* the verdict depends on the rule set only through what each name resolves to; both rule sets must resolve
   EVERY name alike, so an added or removed rule is not covered here but by C08_unreachable_rules_irrelevant *)
Theorem C08_env_ext : forall jm e e' t v, (forall n, lookup_all e n = lookup_all e' n) ->
  (MatchT jm e t v <-> MatchT jm e' t v) /\ (FailT jm e t v <-> FailT jm e' t v).
Proof. exact env_ext. Qed.

Theorem C08_rule_order_irrelevant : forall jm e e' t v, NoDup (map fst e) -> Permutation e e' ->
  (MatchT jm e t v <-> MatchT jm e' t v) /\ (FailT jm e t v <-> FailT jm e' t v).
Proof. exact rule_order_irrelevant. Qed.

Example C08_example :
  MatchT true [(0%N, DType (TRef 1%N)); (1%N, DType (TRef 1001%N))] (TRef 0%N) (VInt 5)
  <-> MatchT true [(1%N, DType (TRef 1001%N)); (0%N, DType (TRef 1%N))] (TRef 0%N) (VInt 5).
Proof. apply rule_order_irrelevant; [repeat constructor; cbn; intuition discriminate|apply perm_swap]. Qed.

(* adding, removing or changing rules that are not reachable: R is any set of names that contains the
   references of the type and is closed under the rules' own references; rule sets that resolve the names
   of R alike give the same verdicts (Sem/Reach.v; proved on the decider at every fuel, then lifted) *)
Theorem C08_unreachable_rules_irrelevant : forall R jm e e' t v,
  (forall n, R n = true -> lookup_all e n = lookup_all e' n) ->
  (forall n d, R n = true -> lookup_all e n = Some d -> def_refs_in R d = true) ->
  refs_in R t = true ->
  (MatchT jm e t v <-> MatchT jm e' t v) /\ (FailT jm e t v <-> FailT jm e' t v).
Proof. exact reach_sem. Qed.

(* renaming rules consistently: an injective renaming that leaves the prelude names alone (Sem/Rename.v) *)
Theorem C08_renaming : forall s jm e t v,
  (forall a b, s a = s b -> a = b) -> (forall n, N.le 1000 n -> s n = n) ->
  (MatchT jm (eren s e) (ren s t) v <-> MatchT jm e t v) /\ (FailT jm (eren s e) (ren s t) v <-> FailT jm e t v).
Proof. exact rename_sem. Qed.

Theorem C08_renaming_decider : forall s jm e f t v,
  (forall a b, s a = s b -> a = b) -> (forall n, N.le 1000 n -> s n = n) ->
  vt f jm (eren s e) (ren s t) v = vt f jm e t v.
Proof. exact rename_vt. Qed.

(* non-vacuity: swapping the names 0 and 1 of a two-rule schema; a dead rule added to it *)
Definition swap01 (n : name) : name := if N.eqb n 0 then 1%N else if N.eqb n 1 then 0%N else n.
Lemma swap01_inj : forall a b, swap01 a = swap01 b -> a = b.
Proof.
  intros a b. unfold swap01.
  destruct (N.eqb a 0) eqn:A0; destruct (N.eqb b 0) eqn:B0; destruct (N.eqb a 1) eqn:A1; destruct (N.eqb b 1) eqn:B1;
    repeat match goal with H : N.eqb _ _ = true |- _ => apply N.eqb_eq in H | H : N.eqb _ _ = false |- _ => apply N.eqb_neq in H end;
    intros; subst; try reflexivity; try lia; try contradiction; try congruence.
Qed.
Lemma swap01_fix : forall n, N.le 1000 n -> swap01 n = n.
Proof.
  intros n Hn. unfold swap01. destruct (N.eqb n 0) eqn:A0; [apply N.eqb_eq in A0; lia|].
  destruct (N.eqb n 1) eqn:A1; [apply N.eqb_eq in A1; lia|reflexivity].
Qed.
Example C08_renaming_example :
  let e := [(0%N, DType (TArr (GOcc 0 None (GEnt None false (TRef 1%N))))); (1%N, DType (TOr (TRef 1001%N) (TRef 0%N)))] in
  eren swap01 e = [(1%N, DType (TArr (GOcc 0 None (GEnt None false (TRef 0%N))))); (0%N, DType (TOr (TRef 1001%N) (TRef 1%N)))] /\
  (MatchT true (eren swap01 e) (TRef 1%N) (VArr [VInt 1; VArr []]) <-> MatchT true e (TRef 0%N) (VArr [VInt 1; VArr []])).
Proof. split; [reflexivity|]. exact (proj1 (rename_sem swap01 true _ (TRef 0%N) _ swap01_inj swap01_fix)). Qed.

Example C08_dead_rule_example :
  let e := [(0%N, DType (TRef 1%N)); (1%N, DType (TRef 1001%N))] in
  let e' := [(0%N, DType (TRef 1%N)); (7%N, DType (TRef 7%N)); (1%N, DType (TRef 1001%N))] in
  MatchT true e (TRef 0%N) (VInt 5) <-> MatchT true e' (TRef 0%N) (VInt 5).
Proof.
  cbv zeta.
  refine (proj1 (reach_sem (fun n => N.eqb n 0 || N.eqb n 1 || N.eqb n 1001) true _ _ (TRef 0%N) (VInt 5) _ _ eq_refl)).
  - intros n Hn. apply orb_true_iff in Hn. destruct Hn as [Hn|Hn]; [apply orb_true_iff in Hn; destruct Hn as [Hn|Hn]|];
      apply N.eqb_eq in Hn; subst n; reflexivity.
  - intros n d Hn L. apply orb_true_iff in Hn. destruct Hn as [Hn|Hn]; [apply orb_true_iff in Hn; destruct Hn as [Hn|Hn]|];
      apply N.eqb_eq in Hn; subst n; vm_compute in L; injection L as <-; reflexivity.
Qed.

(* AT ANY POSITION (Sem/Congr.v, Sem/Subst.v).  Cg B is the congruence generated by the pairs B: the
   related types differ by exchanging B-related sub-expressions under tags, choices, control targets,
   .and/.within operands, array groups at any nesting and map member keys / values.  If the pairs are
   equivalent, so are the wholes (congruence of the specification, by induction over its 54 rules). *)
Theorem C08_congruence : forall jm e (B : ty -> ty -> Prop) t t',
  (forall p q, B p q -> Eqv jm e p q) -> Cg B t t' -> Eqv jm e t t'.
Proof. exact congruence. Qed.

(* replacing a type expression by a reference to a rule defined as that expression, or inlining a rule,
   at any position *)
Theorem C08_naming_anywhere : forall jm e t t' v, Cg (RefPair e) t t' ->
  (MatchT jm e t v <-> MatchT jm e t' v) /\ (FailT jm e t v <-> FailT jm e t' v).
Proof. exact naming_anywhere. Qed.

(* instantiating a generic rule (parameter x bound to the argument a) versus substituting the argument by
   hand; occurrences of the parameter inside the argument of a control other than .and / .within are left alone
   by subst (the fragment reads such an argument syntactically) *)
Theorem C08_generic_is_substitution : forall jm e x a t v,
  (forall n d, other x n = true -> lookup_all e n = Some d -> def_refs_in (other x) d = true) ->
  refs_in (other x) (subst x a t) = true ->
  (MatchT jm ((x, DType a) :: e) t v <-> MatchT jm e (subst x a t) v) /\
  (FailT jm ((x, DType a) :: e) t v <-> FailT jm e (subst x a t) v).
Proof. exact generic_is_substitution. Qed.

(* non-vacuity: pair<t> = [t, {"k" => t .size 2}] instantiated with tstr, against the hand-written type *)
Example C08_generic_example :
  let body := TArr (GSeq (GEnt None false (TRef 5%N))
                         (GEnt None false (TMap (GEnt (Some (TLit (LText [107%N]))) true (TCtl CSize (TRef 5%N) (TLit (LInt 2))))))) in
  subst 5%N (TRef 1006%N) body =
    TArr (GSeq (GEnt None false (TRef 1006%N))
               (GEnt None false (TMap (GEnt (Some (TLit (LText [107%N]))) true (TCtl CSize (TRef 1006%N) (TLit (LInt 2))))))) /\
  (MatchT false [(5%N, DType (TRef 1006%N))] body (VArr [VText [97%N]; VMap [(VText [107%N], VText [97%N; 98%N])]]) <->
   MatchT false [] (subst 5%N (TRef 1006%N) body) (VArr [VText [97%N]; VMap [(VText [107%N], VText [97%N; 98%N])]])).
Proof.
  cbv zeta. split; [reflexivity|].
  apply generic_is_substitution; [|reflexivity].
  intros n d Hn L. unfold lookup_all in L. cbn [lookup] in L.
  pose proof (lookup_forallb (fun _ d => def_refs_in (other 5%N) d) prelude n d ltac:(vm_compute; reflexivity) L) as X.
  exact X.
Qed.

(* a choice spelled as a base rule plus "/=" increments, or as the plugs of a $socket, in document order,
   is the choice of all of them: it matches when one of them does and fails when all of them do *)
Theorem C08_increments : forall jm e incs base v,
  (MatchT jm e (increments base incs) v <-> MatchT jm e base v \/ Exists (fun a => MatchT jm e a v) incs) /\
  (FailT jm e (increments base incs) v <-> FailT jm e base v /\ Forall (fun a => FailT jm e a v) incs).
Proof. intros. split; [apply increments_match|apply increments_fail]. Qed.
