(* C03 - the parser accepts exactly the RFC 8610 / RFC 9682 grammar and mirrors it in the AST.
   Only statements closed by [exact]; proofs are in Grammar/CfgProofs.v, Grammar/PegProofs.v, Grammar/TokenProofs.v.

   Objects:  cddl_pest   the PEG translated from /repo/cddl.pest on this run (Generated/CddlPest.v)
             peg_parse   pest's semantics (Grammar/PegRun.v), checked against the real parser by pair-tree comparison
             conv_cddl   the pair-tree -> AST bridge reduced to the AST shape (Grammar/Bridge.v), checked against the real AST
             abnf_spec   RFC 8610 App. B + RFC 9682 + the four documented leniencies, names/numbers as maximal tokens
             variant m   abnf_spec with the known deviations of mask m switched on (Grammar/Deviations.v)

   THE FULL STATEMENT (language part) is

     C03_language :  forall w, model_accepts w = Some true <-> Der abnf_spec (ARef n_cddl) w [].

   It is FALSE of the faithful model and of the crate: see C03_language_refuted and C03_deviation_witnesses below
   (every witness is replayed on the real parser by the check).  What is proved instead: the recogniser used as
   oracle is correct for every grammar (so a differential run against it is a run against the derivation relation);
   the token classes of the generated grammar equal the ABNF's up to stated bounds, modulo the listed deviations;
   the control-operator table equals the registered list; on a small scope the crate model accepts exactly the ABNF
   language with all listed deviations.  Phrase-level equality beyond that scope is tied by the differential run
   of the check, not by a theorem. *)
From Coq Require Import String.
From Cddl Require Import Grammar.PegSyn Grammar.PegRun Grammar.PegProofs Grammar.Cfg Grammar.CfgProofs Grammar.Abnf8610
  Grammar.Deviations Generated.CddlPest Grammar.Bridge Grammar.Tokens Grammar.TokenProofs.
Open Scope N_scope.

(* ---- (i) the ABNF recogniser is correct, for every grammar and every fuel ---- *)
Theorem C03_recogniser_sound : forall (g : cfg) f e w r,
  In r (fst (ls g f e w)) -> exists u, w = u ++ r /\ Der g e u r.
Proof. exact ls_sound. Qed.

Theorem C03_recogniser_complete : forall (g : cfg) f e w u r,
  snd (ls g f e w) = false -> Der g e u r -> w = u ++ r -> In r (fst (ls g f e w)).
Proof. exact ls_complete. Qed.

Theorem C03_recogniser_decides : forall (g : cfg) s w b,
  recognise g s w = Some b -> (b = true <-> Der g (ARef s) w []).
Proof. exact recognise_correct. Qed.

(* ---- (ii) the pest interpreter: more fuel never changes an answer; pair trees are well formed ---- *)
Theorem C03_peg_fuel_mono : forall (g : pgrammar) f f' e a p w r,
  (f <= f')%nat -> eval g f e a p w = r -> r <> OutOfFuel -> eval g f' e a p w = r.
Proof. exact eval_fuel_mono. Qed.

Theorem C03_peg_tree_wf : forall (g : pgrammar) start w ts p' w',
  peg_parse g start w = Ok ts p' w' ->
  fwf 0 p' ts /\ spans_in 0 (blen w) ts /\ p' + blen w' = blen w.
Proof. exact peg_tree_wf. Qed.

(* ---- (iii) token classes of the generated grammar vs the ABNF (all strings over the alphabet up to the bound) ----
   Grammars (Tokens.v):  g_number = variant {d_radix_float}      g_id    = variant {d_id_runs, d_dollar}
                         g_text   = variant {d_ctrl_chars, d_escapes}   g_bytes = variant {d_bytes_raw, d_bsqual_case}
                         g_blank  = variant {d_ctrl_chars}       g_ctl   = abnf_spec (no deviation since 8d55c20)
   i.e. the specification grammar with exactly the named deviations switched on; the *_refuted theorems show that the
   deviations are real (the RFC rule itself differs from the PEG rule). *)
Theorem C03_uint_lang_eq_upto3 : forall w, Forall (fun c => In c sig_uint) w -> (length w <= 3)%nat ->
  (peg_matches cddl_pest r_uint_value w = Some true <-> Der abnf_spec (ARef n_uint) w []).
Proof. exact uint_lang_eq_bounded. Qed.

Theorem C03_occur_lang_eq_upto3 : forall w, Forall (fun c => In c sig_occur) w -> (length w <= 3)%nat ->
  (peg_matches cddl_pest r_occur w = Some true <-> Der abnf_spec (ARef n_occur) w []).
Proof. exact occur_lang_eq_bounded. Qed.

Theorem C03_number_lang_eq_upto3 : forall w, Forall (fun c => In c sig_number) w -> (length w <= 3)%nat ->
  (peg_matches cddl_pest r_number w = Some true <-> Der g_number (ARef n_number) w []).
Proof. exact number_lang_eq_bounded. Qed.

Theorem C03_id_lang_eq_upto3 : forall w, Forall (fun c => In c sig_id) w -> (length w <= 3)%nat ->
  (peg_matches cddl_pest r_id w = Some true <-> Der g_id (ARef n_idns) w []).
Proof. exact id_lang_eq_bounded. Qed.

Theorem C03_text_lang_eq_upto3 : forall w, Forall (fun c => In c sig_text) w -> (length w <= 3)%nat ->
  (peg_matches cddl_pest r_text_value w = Some true <-> Der g_text (ARef n_text) w []).
Proof. exact text_lang_eq_bounded. Qed.

Theorem C03_text_escapes_lang_eq : forall w, In w text_probe ->
  (peg_matches cddl_pest r_text_value w = Some true <-> Der g_text (ARef n_text) w []).
Proof. exact text_escapes_lang_eq. Qed.

Theorem C03_bytes_lang_eq_upto3 : forall w, Forall (fun c => In c sig_bytes) w -> (length w <= 3)%nat ->
  (peg_matches cddl_pest r_bytes_value w = Some true <-> Der g_bytes (ARef n_bytes) w []).
Proof. exact bytes_lang_eq_bounded. Qed.

Theorem C03_blank_comment_lang_eq_upto3 : forall w, Forall (fun c => In c sig_blank) w -> (length w <= 3)%nat ->
  (peg_matches cddl_pest r_cddl w = Some true <-> Der g_blank (ARef n_cddl) w []).
Proof. exact blank_lang_eq_bounded. Qed.

Theorem C03_id_lang_refuted : exists w, peg_matches cddl_pest r_id w = Some false /\ Der abnf_spec (ARef n_id) w [].
Proof. exact id_lang_refuted. Qed.

Theorem C03_text_lang_refuted : exists w, peg_matches cddl_pest r_text_value w = Some true /\ ~ Der abnf_spec (ARef n_text) w [].
Proof. exact text_lang_refuted. Qed.

Theorem C03_bytes_lang_refuted : exists w, peg_matches cddl_pest r_bytes_value w = Some false /\ Der abnf_spec (ARef n_bytes) w [].
Proof. exact bytes_lang_refuted. Qed.

Theorem C03_number_lang_refuted : exists w, peg_matches cddl_pest r_number w = Some false /\ Der abnf_spec (ARef n_number) w [].
Proof. exact number_lang_refuted. Qed.

(* ---- (iv) control operators: the grammar's names are exactly the registered names ---- *)
Theorem C03_control_names_ok : same_set generated_control_names (map s2n registered_controls) = true.
Proof. exact control_names_ok. Qed.

Theorem C03_control_op_lang_eq : forall w, In w ctl_probe ->
  (peg_matches cddl_pest r_control_op w = Some true <-> Der g_ctl (ARef n_ctlop) w []).
Proof. exact control_op_lang_eq. Qed.

(* every registered name is matched as a whole control operator (the ".cborseq" defect was repaired in 8d55c20) *)
Theorem C03_control_names_reachable :
  forallb (fun n => match peg_matches cddl_pest r_control_op (46 :: s2n n) with
                    | Some b => b
                    | None => false
                    end) registered_controls = true.
Proof. exact control_names_reachable. Qed.

(* ---- (v) whole documents ---- *)
Theorem C03_language_refuted :
  (exists w, model_accepts w = Some true /\ ~ Der abnf_spec (ARef n_cddl) w []) /\
  (exists w, model_accepts w = Some false /\ Der abnf_spec (ARef n_cddl) w []).
Proof. exact language_refuted. Qed.

(* witnesses of the deviations, one or more per bit of all_deviations: model and specification disagree, the single
   deviation explains it *)
Theorem C03_deviation_witnesses : forallb witness_ok deviation_witnesses = true.
Proof. exact deviation_witnesses_ok. Qed.

(* partial: in a small scope the crate model accepts exactly the ABNF language with all listed deviations *)
Theorem C03_language_upto3_partial : forall w, Forall (fun c => In c sig_doc) w -> (length w <= 3)%nat ->
  (model_accepts w = Some true <-> Der (variant all_deviations) (ARef n_cddl) w []).
Proof. exact language_small_scope. Qed.

(* non-vacuity *)
Example C03_example : model_accepts example_doc = Some true /\ Der abnf_spec (ARef n_cddl) example_doc [].
Proof. exact example_accepted. Qed.
