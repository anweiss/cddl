(* C05: on hostile input the alias chase, the decoder and the occurrence loop return, allocation stays within the
   input plus a constant, and the checked operations fail exactly where they overflow. *)
From Cddl Require Import Base.Bytes Base.Lists Cbor.Wire Cbor.DecodeProofs Generated.RobustConsts Robust.Chase Robust.Alloc Robust.Arith Robust.Occur.
Open Scope N_scope.

Lemma memN_In x l : memN x l = true <-> In x l.
Proof.
  unfold memN. rewrite existsb_exists. split.
  - intros (y & Hy & E). apply N.eqb_eq in E. subst. exact Hy.
  - intros H. exists x. split; [exact H|apply N.eqb_refl].
Qed.

Lemma memN_app x a b : memN x (a ++ b) = memN x a || memN x b.
Proof. unfold memN. apply existsb_app. Qed.

Lemma any_o_no_fuel {A} (f : A -> outcome) l :
  (forall x, In x l -> f x <> OutOfFuel) -> any_o f l <> OutOfFuel.
Proof.
  induction l as [|x r IH]; intros H; cbn [any_o]; [discriminate|].
  pose proof (H x (or_introl eq_refl)) as Hx.
  destruct (f x); [discriminate| |congruence].
  apply IH. intros y Hy. apply H. right. exact Hy.
Qed.

(* The active path never repeats a name and holds rule names only, so it is no longer than
   the environment: each nested call lengthens it, and that is what the fuel pays for. *)
Lemma chase_g_fuel hit e : forall f active n,
  NoDup active -> incl active (names e) -> (length e < f + length active)%nat ->
  chase_g hit f active e n <> OutOfFuel.
Proof.
  induction f as [|f IH]; intros active n ND Inc Hf.
  { apply (NoDup_incl_length ND) in Inc. unfold names in Inc. rewrite map_length in Inc. lia. }
  cbn [chase_g]. destruct (memN n hit); [discriminate|].
  destruct (memN n active) eqn:A; [discriminate|].
  apply any_o_no_fuel. intros [m b] Hin. cbn [fst snd].
  destruct (m =? n) eqn:E; [|discriminate]. apply N.eqb_eq in E. subst m.
  apply any_o_no_fuel. intros [k|] _; [|discriminate]. apply IH.
  - constructor; [|exact ND]. rewrite <- memN_In. congruence.
  - intros x [<-|Hx]; [apply in_map_iff; exists (n, b); auto|auto].
  - cbn [length]. lia.
Qed.

(* cyclic rule references terminate: for EVERY environment the guarded helper returns within |e|+2 nested calls *)
Theorem chase_terminates : forall e hit n f, (chase_fuel e <= f)%nat -> chase hit f e n <> OutOfFuel.
Proof.
  intros e hit n f Hf. apply chase_g_fuel; [constructor|intros x []|].
  unfold chase_fuel in Hf. cbn [length]. lia.
Qed.

Theorem chase_seq_terminates : forall e hits n f, (chase_fuel e <= f)%nat -> chase_seq hits f e n <> OutOfFuel.
Proof.
  intros e hits n f Hf. induction hits as [|h r IH]; cbn [chase_seq]; [discriminate|].
  pose proof (chase_terminates e h n f Hf) as H.
  destruct (chase h f e n); [discriminate|exact IH|congruence].
Qed.

(* the schema  a = b .size 3 / b = a  (names a = 0, b = 1, tstr = 100, text = 101, uint = 102), on which the
   code overflowed the stack before d9284e7: `.size` asks is_ident_string_data_type(b) || is_ident_uint_data_type(b),
   and with the guard both answer "no" *)
Definition cyc2 : env := [(0, [Alias 1]); (1, [Alias 0])].
Definition size_hits : list (list name) := [[100; 101]; [102]].

(* A topological order certifies acyclicity ([pre] is what came before): Kahn's rounds settle the names of
   [ord] one round apiece at the latest. *)
Fixpoint ordered (e : env) (pre ord : list name) : bool :=
  match ord with
  | [] => true
  | n :: r => memN n (names e) && forallb (settled e pre) (targets e n) && ordered e (n :: pre) r
  end.

Lemma settled_mono e s s' k :
  (forall x, memN x s = true -> memN x s' = true) -> settled e s k = true -> settled e s' k = true.
Proof. unfold settled. intros M H. apply orb_true_iff in H as [H|H]; apply orb_true_iff; auto. Qed.

Lemma kahn_step_incl e s x : memN x s = true -> memN x (kahn_step e s) = true.
Proof. intros H. unfold kahn_step. rewrite memN_app, H. reflexivity. Qed.

Lemma kahn_incl e : forall r s x, memN x s = true -> memN x (kahn r e s) = true.
Proof. induction r as [|r IH]; intros s x H; cbn [kahn]; auto using kahn_step_incl. Qed.

Lemma kahn_ordered e : forall ord pre s r, ordered e pre ord = true ->
  (forall x, In x pre -> memN x s = true) -> (length ord <= r)%nat ->
  forall n, In n ord -> memN n (kahn r e s) = true.
Proof.
  induction ord as [|m ord IH]; intros pre s r O P L n Hn; [destruct Hn|].
  destruct r as [|r]; [cbn in L; lia|]. cbn [ordered] in O. cbn [kahn].
  apply andb_true_iff in O as [O O2]. apply andb_true_iff in O as [O0 O1].
  assert (Hm : memN m (kahn_step e s) = true).
  { unfold kahn_step. rewrite memN_app. apply orb_true_iff. right. apply memN_In, filter_In.
    split; [apply memN_In; exact O0|]. rewrite forallb_forall in O1 |- *. intros k Hk.
    apply (settled_mono e pre); [|auto]. intros x Hx. apply P, memN_In, Hx. }
  destruct Hn as [<-|Hn]; [apply kahn_incl; exact Hm|].
  apply (IH (m :: pre)); auto; [|cbn in L; lia].
  intros x [<-|Hx]; [exact Hm|apply kahn_step_incl; auto].
Qed.

Theorem acyclic_of_order e ord :
  ordered e [] ord = true -> (length ord <= length e)%nat -> incl (names e) ord -> acyclic_alias e = true.
Proof.
  intros O L I. unfold acyclic_alias. apply forallb_forall. intros n Hn.
  apply (kahn_ordered e ord [] [] _ O); [intros x []|exact L|apply I, Hn].
Qed.

(* the alias graph may be acyclic and the number of calls still exponential in the number of rules;
   the diamond's rules are written in the order opposite to a topological one *)
Theorem calls_exponential_refuted :
  exists e n, acyclic_alias e = true /\ length e = 41%nat /\ 2 ^ 40 <= calls e n.
Proof.
  set (e := diamond 40 0 ++ [(40, [Other])]).
  exists e, 0. split; [|split; [reflexivity|vm_compute; discriminate]].
  apply (acyclic_of_order e (rev (names e))); [vm_compute; reflexivity| |intros x; apply in_rev].
  unfold names. rewrite rev_length, map_length. apply le_n.
Qed.

Lemma chunk_flag : read_len_chunk_capped = true. Proof. reflexivity. Qed.
Lemma initial_flag : read_len_initial_capped = true. Proof. reflexivity. Qed.
Lemma loop_shape_flag : read_len_loop_shape = true. Proof. reflexivity. Qed.
Lemma sites_flag : forallb (fun s : N * bool => snd s) alloc_sites = true. Proof. reflexivity. Qed.
Lemma max_prealloc_pos : 1 <= MAX_PREALLOC. Proof. vm_compute. discriminate. Qed.
(* the cap is small: a hostile head costs at most this many bytes (elements) up front *)
Lemma max_prealloc_small : MAX_PREALLOC <= 65536. Proof. vm_compute. discriminate. Qed.

Lemma chunk_min r : chunk r = N.min r MAX_PREALLOC.
Proof. unfold chunk. rewrite chunk_flag. reflexivity. Qed.

Lemma read_loop_bound : forall f rem start inp r,
  In r (fst (read_loop f rem start inp)) -> r <= start + lenN inp + MAX_PREALLOC.
Proof.
  induction f as [|f IH]; intros rem start inp r H; cbn [read_loop] in H; [destruct H|].
  destruct (rem =? 0); [destruct H|].
  pose proof (chunk_min rem) as C.
  destruct (takeN (chunk rem) inp) as [[p t]|] eqn:T.
  - cbn [fst] in H. destruct H as [<-|H]; [lia|].
    apply IH in H. apply takeN_spec in T as [-> L]. rewrite lenN_app. lia.
  - cbn [fst] in H. destruct H as [<-|[]]. lia.
Qed.

Theorem alloc_bounded : forall n inp r,
  In r (fst (read_len n inp)) -> r <= lenN inp + MAX_PREALLOC.
Proof.
  intros n inp r H. unfold read_len in H. cbn [fst] in H. destruct H as [<-|H].
  - unfold initial_cap. rewrite initial_flag. lia.
  - apply read_loop_bound in H. lia.
Qed.

Theorem prealloc_capped : forall n r, In r (prealloc_requests n) -> r <= MAX_PREALLOC.
Proof.
  intros n r H. unfold prealloc_requests in H. apply in_map_iff in H as ([l c] & <- & Hin).
  pose proof sites_flag as F. rewrite forallb_forall in F. specialize (F _ Hin). cbn [snd] in F |- *.
  unfold site_request. rewrite F. lia.
Qed.

(* takeN is the one-shot read of the C11 model (Cbor/Wire.v) *)
Lemma read_loop_is_takeN : forall f rem start inp, (length inp < f)%nat ->
  snd (read_loop f rem start inp) = match takeN rem inp with Some (p, t) => Ok (p, t) | None => Err EEof end.
Proof.
  induction f as [|f IH]; intros rem start inp Hf; [lia|]. cbn [read_loop].
  destruct (rem =? 0) eqn:E.
  - apply N.eqb_eq in E. subst. rewrite takeN_0. reflexivity.
  - pose proof (chunk_min rem) as C. pose proof max_prealloc_pos.
    replace (takeN rem inp) with (takeN (chunk rem + (rem - chunk rem)) inp) by (f_equal; lia). rewrite takeN_add.
    destruct (takeN (chunk rem) inp) as [[p t]|] eqn:T; cbn [snd]; [|reflexivity].
    apply takeN_spec in T as [-> L]. rewrite IH.
    + destruct (takeN (rem - chunk rem) t) as [[q u]|]; reflexivity.
    + rewrite app_length in Hf. unfold lenN in L. lia.
Qed.

Theorem read_len_is_takeN : forall n inp,
  snd (read_len n inp) = match takeN n inp with Some (p, t) => Ok (p, t) | None => Err EEof end.
Proof. intros n inp. unfold read_len. cbn [snd]. apply read_loop_is_takeN. lia. Qed.

Theorem decode_terminates : forall bs, wf_bytes bs ->
  (forall f, (2 * length bs + 1 <= f)%nat -> dec_item f bs <> Err EFuel) /\
  ((exists v, decode_cbor bs = Ok v) \/ (exists k, decode_cbor bs = Err k /\ k <> EFuel)).
Proof.
  intros bs W. split.
  - intros f Hf. exact (dec_fuel f bs W Hf).
  - apply decode_total. exact W.
Qed.

Open Scope Z_scope.

Theorem mul1000_none_iff : forall n, in_i64 n = true ->
  (mul1000_checked n = None <-> mul1000_overflows n = true).
Proof.
  intros n H. unfold mul1000_checked, mul1000_overflows, in_i64 in *.
  destruct ((- 2 ^ 63 <=? n * 1000) && (n * 1000 <? 2 ^ 63)) eqn:E; split; intros G; try discriminate; try reflexivity; lia.
Qed.

Theorem try_into_i64_total : forall z, in_i64 z = true -> try_into_i64 z = Some z.
Proof. intros z H. unfold try_into_i64. rewrite H. reflexivity. Qed.

Theorem try_into_i64_none_iff : forall z, try_into_i64 z = None <-> in_i64 z = false.
Proof. intros z. unfold try_into_i64. destruct (in_i64 z); split; intros H; congruence. Qed.

Theorem as_u32_exact_iff : forall v, 0 <= v -> (as_u32 v = v <-> v < 2 ^ 32).
Proof.
  intros v H. unfold as_u32. split; intros G; [rewrite <- G; apply Z.mod_pos_bound|apply Z.mod_small]; lia.
Qed.

(* RFC 8610 3.8.1: `uint .size v` with v >= 8 accepts every unsigned 64-bit integer *)
Theorem size_uint_refuted : exists v v', in_u64 v = true /\ in_u64 v' = true /\ 8 <= v /\ 8 <= v' /\
  as_u32 v <> v /\ size_uint_accepts v 5 = false /\ as_u32 v' = v' /\ size_uint_accepts v' 5 = false.
Proof. exists 4294967296, 16. repeat split; try (vm_compute; reflexivity); vm_compute; discriminate. Qed.

Theorem size_uint_exact : forall v i, 0 <= v < 16 -> (size_uint_accepts v i = true <-> i < 256 ^ v).
Proof.
  intros v i H. unfold size_uint_accepts, pow256_checked.
  rewrite (proj2 (as_u32_exact_iff v ltac:(lia))) by lia.
  destruct (v <? 16) eqn:E; [|lia]. lia.
Qed.

Theorem plus_checked_total : forall a b, 0 <= a < 2 ^ 62 -> 0 <= b < 2 ^ 62 -> plus_checked a b = Some (a + b).
Proof.
  intros a b Ha Hb. unfold plus_checked, in_u64.
  destruct ((0 <=? a) && (0 <=? b)) eqn:E; [|lia].
  destruct ((0 <=? a + b) && (a + b <? 2 ^ 64)) eqn:F; [reflexivity|lia].
Qed.

Theorem plus_checked_uint_none_iff : forall a b, 0 <= a -> 0 <= b -> (plus_checked a b = None <-> 2 ^ 64 <= a + b).
Proof.
  intros a b Ha Hb. unfold plus_checked, in_u64.
  destruct ((0 <=? a) && (0 <=? b)) eqn:E; [|lia].
  destruct ((0 <=? a + b) && (a + b <? 2 ^ 64)) eqn:F; split; intros G; try discriminate; try reflexivity; lia.
Qed.

Open Scope N_scope.

Lemma finish_no_fuel {A} min count (cur : list A) : finish min count cur <> OFuel.
Proof. unfold finish. destruct (min <=? count); discriminate. Qed.

(* with the zero-width stop the loop needs at most one step per remaining element plus one,
   whatever the bounds written in the schema *)
Theorem occ_loop_terminates {A} (once : list A -> option (list A)) : consumes once ->
  forall f min max count cur, (length cur < f)%nat -> occ_loop true once f min max count cur <> OFuel.
Proof.
  intros C. induction f as [|f IH]; intros min max count cur Hf; [lia|]. cbn [occ_loop].
  destruct (below max count); [|apply finish_no_fuel].
  destruct (once cur) as [next|] eqn:E; [|apply finish_no_fuel].
  destruct (C _ _ E) as (p & ->). rewrite app_length in Hf |- *.
  destruct (length next =? length p + length next)%nat eqn:L; cbn [andb orb]; [apply finish_no_fuel|].
  apply IH. apply Nat.eqb_neq in L. lia.
Qed.

Lemma zero_width_flags : json_zero_width_stop && cbor_zero_width_stop = true. Proof. reflexivity. Qed.

Theorem occ_loop_code_terminates {A} (once : list A -> option (list A)) : consumes once ->
  forall f min max count cur, (length cur < f)%nat ->
  occ_loop (json_zero_width_stop && cbor_zero_width_stop) once f min max count cur <> OFuel.
Proof. rewrite zero_width_flags. apply occ_loop_terminates. Qed.

(* without the stop on bounded occurrences the number of steps follows the bound written in the schema:
   an entry that matches without consuming anything, no element at all, and every fuel is exhausted by some bound *)
Lemma occ_loop_unstopped : forall f count,
  occ_loop false (fun l : list N => Some l) f 0 (Some (count + N.of_nat f)) count [] = OFuel.
Proof.
  induction f as [|f IH]; intros count; [reflexivity|]. cbn [occ_loop below].
  assert (B : (count <? count + N.of_nat (S f)) = true) by lia. rewrite B.
  cbn [length Nat.eqb andb orb unbounded].
  replace (count + N.of_nat (S f)) with (count + 1 + N.of_nat f) by lia. apply IH.
Qed.

Theorem occ_loop_unstopped_refuted :
  exists once : list N -> option (list N), consumes once /\
    forall f, exists m, occ_loop false once f 0 (Some m) 0 [] = OFuel.
Proof.
  exists (fun l => Some l). split.
  - intros l l' H. inversion H. subst. exists []. reflexivity.
  - intros f. exists (N.of_nat f). exact (occ_loop_unstopped f 0).
Qed.
