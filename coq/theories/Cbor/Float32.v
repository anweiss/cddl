(* binary32 -> binary64 widening (Wire.widen32) is exact on every pattern: same class, sign and value. *)
From Cddl Require Import Base.Bytes Cbor.Wire Cbor.Float.
Open Scope N_scope.

Definition widen32_ok (x : N) : bool :=
  match f32 x, f64 (widen32 x) with
  | FNum s v, FNum s' v' => Bool.eqb s s' && (v =? v')
  | FInf s, FInf s' => Bool.eqb s s'
  | FNaN, FNaN => true
  | _, _ => false
  end.

Theorem widen32_exact x : x < 2 ^ 32 -> widen32_ok x = true.
Proof. apply (widen_exact 8 23); [reflexivity|discriminate|discriminate]. Qed.
