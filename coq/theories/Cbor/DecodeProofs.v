(* Proofs about the decoder model: it decides exactly the RFC 8949 relation of Wf.v. *)
From Cddl Require Import Base.Lists.
From Cddl Require Import Base.Bytes Base.Utf8 Cbor.Wire Cbor.Wf.
Open Scope N_scope.

Lemma wf_app a b : wf_bytes (a ++ b) <-> wf_bytes a /\ wf_bytes b.
Proof. apply Forall_app. Qed.

Lemma wf_suffix a b : wf_bytes (a ++ b) -> wf_bytes b.
Proof. intros H. apply wf_app in H. tauto. Qed.

Lemma take_k_none k : forall r, take_k k r = None -> (length r < k)%nat.
Proof. intros r. rewrite take_k_takeN, takeN_none_iff. unfold lenN. lia. Qed.

Lemma be1 x : be [x] = x.
Proof. unfold be. cbn. lia. Qed.

Lemma hd_byte m ai : ai < 32 -> (m * 32 + ai) / 32 = m /\ (m * 32 + ai) mod 32 = ai.
Proof. intros H. split; [apply div_pack|apply mod_pack]; exact H. Qed.

Lemma next_width_spec ai k : next_width ai = Some k -> width_ai k ai.
Proof.
  unfold next_width, width_ai.
  destruct (ai =? 24) eqn:E1; [intros H; inversion H; lia|].
  destruct (ai =? 25) eqn:E2; [intros H; inversion H; lia|].
  destruct (ai =? 26) eqn:E3; [intros H; inversion H; lia|].
  destruct (ai =? 27) eqn:E4; [intros H; inversion H; lia|discriminate].
Qed.

Lemma width_ai_next k ai : width_ai k ai -> next_width ai = Some k /\ (ai <? 24) = false.
Proof. unfold width_ai, next_width. intros [[-> ->]|[[-> ->]|[[-> ->]|[-> ->]]]]; split; reflexivity. Qed.

(* The shape of what is proved of each reader of the model, by cases on what it returned on [bs]: a value and the
   rest [r] come with consumed bytes [e] that [P] relates to the value; an error is [EFuel] only if [small] holds
   (for [pull_title] and [pull], never; for the readers with fuel, only if the fuel was small against the length of [bs]). *)
Definition reads {A} (P : A -> list N -> Prop) (small : Prop) (bs : list N) (x : res (A * list N)) : Prop :=
  match x with
  | Ok (a, r) => exists e, bs = e ++ r /\ P a e
  | Err k => k = EFuel -> small
  end.

Lemma reads_ok {A} (P : A -> list N -> Prop) s a e r : P a e -> reads P s (e ++ r) (Ok (a, r)).
Proof. intros H. exists e. split; [reflexivity|exact H]. Qed.

(* A reader [x] run after [pre] was consumed, and the model's next step [g] on its value and rest: [x] is known
   on its own input [r]; [g] is asked about on the whole input, now split after what [x] consumed. The fuel that
   is small for [x] on [r] has to be small for the whole. *)
Lemma reads_bind {A B} {P : A -> list N -> Prop} {Q : B -> list N -> Prop} {s s' : Prop} pre {r x g} :
  reads P s r x -> (s -> s') ->
  (forall a e t, r = e ++ t -> P a e -> reads Q s' ((pre ++ e) ++ t) (g a t)) ->
  reads Q s' (pre ++ r) (match x with Ok (a, t) => g a t | Err k => Err k end).
Proof.
  intros H Hs K. destruct x as [[a t]|k].
  - destruct H as (e & -> & HP). rewrite app_assoc. exact (K a e t eq_refl HP).
  - intros E. exact (Hs (H E)).
Qed.

Definition to_break {A} (P : A -> list N -> Prop) (a : A) (e' : list N) : Prop := exists e, e' = e ++ [255] /\ P a e.

Inductive TitleEnc (mj : N) : minor -> list N -> Prop :=
| TImm x : x < 24 -> TitleEnc mj (MThis x) [mj * 32 + x]
| TNext k ai b : width_ai k ai -> length b = k -> TitleEnc mj (MNext k (be b)) (mj * 32 + ai :: b)
| TMore : TitleEnc mj MMore [mj * 32 + 31].

Lemma pull_title_sound bs : reads (fun t hd => TitleEnc (fst t) (snd t) hd) False bs (pull_title bs).
Proof.
  destruct bs as [|b bs]; [discriminate|]. cbn [pull_title].
  assert (Hd : b = b / 32 * 32 + b mod 32) by (pose proof (N.div_mod b 32); lia).
  destruct (b mod 32 <? 24) eqn:E.
  - rewrite Hd at 1. apply (reads_ok _ _ _ [_]). constructor. lia.
  - destruct (next_width (b mod 32)) as [k|] eqn:En.
    + destruct (take_k k bs) as [[h t]|] eqn:Et; [|discriminate].
      apply take_k_spec in Et as [-> Hl]. apply next_width_spec in En.
      rewrite Hd at 1. apply (reads_ok _ _ _ (_ :: h)). constructor; auto.
    + destruct (b mod 32 =? 31) eqn:E31; [|discriminate].
      rewrite Hd at 1. replace (b mod 32) with 31 by lia. apply (reads_ok _ _ _ [_]). constructor.
Qed.

Lemma pull_title_complete mj m hd r : TitleEnc mj m hd -> pull_title (hd ++ r) = Ok (mj, m, r).
Proof.
  intros [x Hx|k ai b Hw Hl|]; cbn [app pull_title].
  - destruct (hd_byte mj x ltac:(lia)) as [-> ->]. destruct (x <? 24) eqn:E; [reflexivity|lia].
  - assert (Ha : ai < 32) by (unfold width_ai in Hw; lia).
    destruct (hd_byte mj ai Ha) as [-> ->]. destruct (width_ai_next _ _ Hw) as [-> ->].
    rewrite take_k_app by exact Hl. reflexivity.
  - destruct (hd_byte mj 31 ltac:(lia)) as [-> ->]. reflexivity.
Qed.

Lemma Head_title m n hd : Head m n hd -> exists mi, minor_arg mi = Some n /\ TitleEnc m mi hd.
Proof.
  intros [x Hx|k ai b Hw Hl]; [exists (MThis x)|exists (MNext k (be b))];
    (split; [reflexivity|constructor; auto]).
Qed.

Lemma Head_len m n h : Head m n h -> (1 <= length h)%nat.
Proof. destruct 1; cbn; lia. Qed.

(* one constructor for what each rule of Enc starts with, and one for break *)
Inductive HdrEnc : hdr -> list N -> Prop :=
| HEPos n h : Head 0 n h -> HdrEnc (HPos n) h
| HENeg n h : Head 1 n h -> HdrEnc (HNeg n) h
| HEBytes n h : Head 2 n h -> HdrEnc (HBytes (Some n)) h
| HEBytesI : HdrEnc (HBytes None) [95]
| HEText n h : Head 3 n h -> HdrEnc (HText (Some n)) h
| HETextI : HdrEnc (HText None) [127]
| HEArr n h : Head 4 n h -> HdrEnc (HArr (Some n)) h
| HEArrI : HdrEnc (HArr None) [159]
| HEMap n h : Head 5 n h -> HdrEnc (HMap (Some n)) h
| HEMapI : HdrEnc (HMap None) [191]
| HETag n h : Head 6 n h -> HdrEnc (HTag n) h
| HEBreak : HdrEnc HBreak [255]
| HESimple1 n : n < 24 -> HdrEnc (HSimple n) [224 + n]
| HESimple2 n : 32 <= n -> n < 256 -> HdrEnc (HSimple n) [248; n]
| HEF16 b : length b = 2%nat -> HdrEnc (HFloat (widen16 (be b))) (249 :: b)
| HEF32 b : length b = 4%nat -> HdrEnc (HFloat (widen32 (be b))) (250 :: b)
| HEF64 b : length b = 8%nat -> HdrEnc (HFloat (be b)) (251 :: b).

Lemma to_hdr_sound mj m hd :
  wf_bytes hd -> TitleEnc mj m hd -> match to_hdr mj m with Ok h => HdrEnc h hd | Err e => e = ESyntax end.
Proof.
  intros W T. destruct (N.eq_dec mj 7) as [->|N7].
  - destruct T as [x Hx|k ai b Hw Hl|].
    + exact (HESimple1 x Hx).
    + destruct Hw as [[-> ->]|[[-> ->]|[[-> ->]|[-> ->]]]]; cbv [to_hdr N.eqb Pos.eqb].
      * destruct b as [|x [|]]; try discriminate. rewrite be1.
        destruct (x <? 32) eqn:Ex; [reflexivity|].
        apply HESimple2; [lia|exact (Forall_inv (Forall_inv_tail W))].
      * exact (HEF16 b Hl).
      * exact (HEF32 b Hl).
      * exact (HEF64 b Hl).
    + exact HEBreak.
  - (* no other major type is left, the title's first byte being a byte *)
    assert (C : In mj [0; 1; 2; 3; 4; 5; 6]) by (destruct T; apply Forall_inv in W; cbn [In]; lia).
    destruct C as [<-|[<-|[<-|[<-|[<-|[<-|[<-|[]]]]]]]];
      destruct T; cbv [to_hdr minor_arg N.eqb Pos.eqb]; constructor; econstructor; eauto.
Qed.

Lemma pull_spec bs : wf_bytes bs -> reads (fun h hd => (1 <= length hd)%nat /\ HdrEnc h hd) False bs (pull bs).
Proof.
  intros W. unfold pull. apply (reads_bind [] (pull_title_sound bs)); [tauto|].
  intros [mj m] hd r -> T. cbn [app fst snd] in *. apply wf_app in W as [W _].
  pose proof (to_hdr_sound mj m hd W T) as S. destruct (to_hdr mj m) as [h|e].
  - apply reads_ok. split; [destruct T; cbn [length]; lia|exact S].
  - subst. discriminate.
Qed.

Lemma pull_title_enc mj m hd h r :
  TitleEnc mj m hd -> to_hdr mj m = Ok h -> pull (hd ++ r) = Ok (h, r).
Proof. intros T E. unfold pull. rewrite (pull_title_complete _ _ _ r T), E. reflexivity. Qed.

Lemma pull_complete h hd r : HdrEnc h hd -> pull (hd ++ r) = Ok (h, r).
Proof.
  destruct 1 as [n a H|n a H|n a H| |n a H| |n a H| |n a H| |n a H| |n Hn|n H1 H2|b Hb|b Hb|b Hb];
    try (apply Head_title in H as (mi & E & T); apply (pull_title_enc _ _ _ _ _ T);
         cbv [to_hdr N.eqb Pos.eqb]; rewrite E; reflexivity).
  (* the headers that are one fixed byte *)
  1-5: reflexivity.
  - exact (pull_title_enc 7 (MThis n) _ _ r (TImm 7 n Hn) eq_refl).
  - apply (pull_title_enc 7 _ _ _ r (TNext 7 1 24 [n] (next_width_spec 24 1 eq_refl) eq_refl)).
    rewrite be1. cbv [to_hdr N.eqb Pos.eqb]. destruct (n <? 32) eqn:E; [lia|reflexivity].
  - exact (pull_title_enc 7 _ _ _ r (TNext 7 2 25 b (next_width_spec 25 2 eq_refl) Hb) eq_refl).
  - exact (pull_title_enc 7 _ _ _ r (TNext 7 4 26 b (next_width_spec 26 4 eq_refl) Hb) eq_refl).
  - exact (pull_title_enc 7 _ _ _ r (TNext 7 8 27 b (next_width_spec 27 8 eq_refl) Hb) eq_refl).
Qed.

Lemma pull_break r : pull (255 :: r) = Ok (HBreak, r).
Proof. exact (pull_complete HBreak [255] r HEBreak). Qed.

(* The two loops that end at a break, unfolded once with the test for break as a boolean: proofs split
   on it and not on every header the model's match lists. *)
Definition is_break (h : hdr) : bool := match h with HBreak => true | _ => false end.

Lemma chunks_S txt f bs :
  chunks txt (S f) bs =
  match pull bs with
  | Err e => Err e
  | Ok (h, r) =>
    if is_break h then Ok ([], r) else
    match chunk_len txt h with
    | None => Err ESyntax
    | Some n =>
      match takeN n r with
      | None => Err EEof
      | Some (p, t) =>
        if chunk_ok txt p
        then match chunks txt f t with Err e => Err e | Ok (q, u) => Ok (p ++ q, u) end
        else Err ESyntax
      end
    end
  end.
Proof. cbn [chunks]. destruct (pull bs) as [[[] ?]|]; reflexivity. Qed.

Lemma dec_indef_S f bs :
  dec_indef (S f) bs =
  match pull bs with
  | Err e => Err e
  | Ok (h, r) =>
    if is_break h then Ok ([], r) else
    match dec_item f bs with
    | Err e => Err e
    | Ok (i, r1) => match dec_indef f r1 with Err e => Err e | Ok (l, t) => Ok (i :: l, t) end
    end
  end.
Proof. cbn [dec_indef]. destruct (pull bs) as [[[] ?]|]; reflexivity. Qed.

Lemma is_break_enc h hd : is_break h = true -> HdrEnc h hd -> hd = [255].
Proof. intros B HE. destruct HE; try discriminate. reflexivity. Qed.

Definition major_of (txt : bool) : N := if txt then 3 else 2.

Lemma chunk_len_spec txt h n hd : chunk_len txt h = Some n -> HdrEnc h hd -> Head (major_of txt) n hd.
Proof. intros H E. destruct E, txt; inversion H; subst; assumption. Qed.

Lemma chunk_len_complete txt n hd : Head (major_of txt) n hd ->
  exists h, HdrEnc h hd /\ is_break h = false /\ chunk_len txt h = Some n.
Proof. intros H. destruct txt; eexists; (split; [econstructor; exact H|split; reflexivity]). Qed.

(* Goals about [length]s of concatenations and conses, as the fuel bounds are: [length] is pushed through [++] and
   [::] in goal and hypotheses, after which the goal is linear arithmetic over the lengths of the pieces. *)
Ltac lens := cbn [length] in *; rewrite ?app_length in *; cbn [length] in *; lia.

Lemma Enc_len i e : Enc i e -> (1 <= length e)%nat.
Proof. destruct 1; try apply Head_len in H; lens. Qed.

(* The [Err] cases: fuel runs out only if it was at most twice the input (plus one for a sequence), since
   a byte pays for two calls, the item it starts and that item's place in a sequence. *)
Lemma chunks_spec txt : forall f bs, wf_bytes bs ->
  reads (to_break (Chunks (major_of txt) (chunk_ok txt))) (f <= 2 * length bs)%nat bs (chunks txt f bs).
Proof.
  induction f as [|f IH]; intros bs W; [intros _; lia|]. rewrite chunks_S.
  apply (reads_bind [] (pull_spec bs W)); [tauto|]. intros h hd r0 -> [Hne HE]. cbn [app].
  destruct (is_break h) eqn:B.
  - rewrite (is_break_enc _ _ B HE). apply reads_ok. exists []. split; [reflexivity|constructor].
  - destruct (chunk_len txt h) as [n|] eqn:El; [|discriminate].
    destruct (takeN n r0) as [[p0 t]|] eqn:Et; [|discriminate]. apply takeN_spec in Et as [-> <-].
    destruct (chunk_ok txt p0) eqn:Eok; [|discriminate]. rewrite app_assoc.
    apply (reads_bind (hd ++ p0) (IH t ltac:(eauto using wf_suffix))); [lens|].
    intros q _ u -> (e & -> & HC). apply reads_ok. exists (hd ++ p0 ++ e).
    split; [rewrite <- !app_assoc; reflexivity|]. constructor; eauto using chunk_len_spec.
Qed.

Lemma pair_up_flat : forall l q, pair_up l = Some q -> l = flat_pairs q.
Proof.
  fix IH 1. intros [|k [|v r]] q H; cbn [pair_up] in H.
  - inversion H; reflexivity.
  - discriminate.
  - destruct (pair_up r) as [q'|] eqn:E; [|discriminate]. inversion H; subst.
    cbn [flat_pairs]. f_equal. f_equal. apply IH; auto.
Qed.

Lemma pair_up_of_flat : forall q, pair_up (flat_pairs q) = Some q.
Proof. induction q as [|[k v] q IH]; cbn; [reflexivity|]. rewrite IH. reflexivity. Qed.

Lemma lenN_flat q : lenN (flat_pairs q) = 2 * lenN q.
Proof. induction q as [|[k v] q IH]; [reflexivity|]. cbn [flat_pairs]. rewrite !lenN_cons, IH. lia. Qed.

Lemma dec_spec : forall f,
  (forall bs, wf_bytes bs -> reads Enc (f <= 2 * length bs)%nat bs (dec_item f bs)) /\
  (forall n bs, wf_bytes bs ->
     reads (fun l e => EncL l e /\ lenN l = n) (f <= 2 * length bs + 1)%nat bs (dec_items f n bs)) /\
  (forall bs, wf_bytes bs -> reads (to_break EncL) (f <= 2 * length bs + 1)%nat bs (dec_indef f bs)).
Proof.
  induction f as [|f (IHi & IHn & IHd)]; [repeat split; intros; intros _; lia|].
  repeat split.
  - intros bs W. cbn [dec_item]. apply (reads_bind [] (pull_spec bs W)); [tauto|].
    intros h hd r0 -> [Hne HE]. cbn [app]. assert (W0 : wf_bytes r0) by (eapply wf_suffix; eauto).
    destruct HE as [n hd Hh|n hd Hh|n hd Hh| |n hd Hh| |n hd Hh| |n hd Hh| |n hd Hh| |n Hn|n H1 H2|b Hb|b Hb|b Hb].
    1-2, 13-17: apply reads_ok; constructor; auto.
    + destruct (takeN n r0) as [[p t]|] eqn:Et; [|discriminate]. apply takeN_spec in Et as [-> <-].
      rewrite app_assoc. apply reads_ok. constructor; auto.
    + apply (reads_bind [95] (chunks_spec false f r0 W0)); [lens|].
      intros p _ t -> (e & -> & HC). apply reads_ok. exact (EncBytesI p e HC).
    + destruct (takeN n r0) as [[p t]|] eqn:Et; [|discriminate]. apply takeN_spec in Et as [-> <-].
      destruct (utf8_valid p) eqn:Eu; [|discriminate].
      rewrite app_assoc. apply reads_ok. constructor; auto.
    + apply (reads_bind [127] (chunks_spec true f r0 W0)); [lens|].
      intros p _ t -> (e & -> & HC). apply reads_ok. exact (EncTextI p e HC).
    + apply (reads_bind hd (IHn n r0 W0)); [lens|].
      intros l e t -> [HL <-]. apply reads_ok. constructor; auto.
    + apply (reads_bind [159] (IHd r0 W0)); [lens|].
      intros l _ t -> (e & -> & HL). apply reads_ok. exact (EncArrI l e HL).
    + apply (reads_bind hd (IHn (2 * n) r0 W0)); [lens|]. intros l e t -> [HL Hlen].
      destruct (pair_up l) as [q|] eqn:Eq; [|discriminate].
      apply pair_up_flat in Eq; subst l. rewrite lenN_flat in Hlen.
      apply reads_ok. constructor; auto. replace (lenN q) with n by lia. auto.
    + apply (reads_bind [191] (IHd r0 W0)); [lens|]. intros l _ t -> (e & -> & HL).
      destruct (pair_up l) as [q|] eqn:Eq; [|discriminate].
      apply pair_up_flat in Eq; subst l. apply reads_ok. exact (EncMapI q e HL).
    + apply (reads_bind hd (IHi r0 W0)); [lens|].
      intros i e t -> HE. apply reads_ok. constructor; auto.
    + discriminate.
  - intros n bs W. cbn [dec_items]. destruct (n =? 0) eqn:En.
    + apply (reads_ok _ _ _ []). split; [constructor|change (lenN []) with 0; lia].
    + apply (reads_bind [] (IHi bs W)); [lia|]. intros i e1 r1 -> HE1. pose proof (Enc_len _ _ HE1).
      apply (reads_bind _ (IHn (N.pred n) r1 ltac:(eauto using wf_suffix))); [lens|].
      intros l e2 t -> [HL Hlen]. apply reads_ok. split; [constructor; auto|rewrite lenN_cons; lia].
  - intros bs W. rewrite dec_indef_S.
    apply (reads_bind [] (pull_spec bs W)); [tauto|]. intros h hd r0 E [_ HE]. cbn [app].
    destruct (is_break h) eqn:B.
    + subst bs. rewrite (is_break_enc _ _ B HE). apply reads_ok. exists []. split; [reflexivity|constructor].
    + (* the item is read from the start of [bs], header included *)
      rewrite <- E. apply (reads_bind [] (IHi bs W)); [lia|]. intros i e1 r1 -> HE1. pose proof (Enc_len _ _ HE1).
      apply (reads_bind _ (IHd r1 ltac:(eauto using wf_suffix))); [lens|].
      intros l _ t -> (e2 & -> & HL). apply reads_ok. exists (e1 ++ e2). split; [apply app_assoc|constructor; auto].
Qed.

Lemma dec_item_sound f bs i r :
  wf_bytes bs -> dec_item f bs = Ok (i, r) -> exists e, bs = e ++ r /\ Enc i e.
Proof. intros W H. pose proof (proj1 (dec_spec f) bs W) as S. rewrite H in S. exact S. Qed.

Lemma dec_fuel f bs : wf_bytes bs -> (2 * length bs + 1 <= f)%nat -> dec_item f bs <> Err EFuel.
Proof.
  intros W Hf H. pose proof (proj1 (dec_spec f) bs W) as S. rewrite H in S. specialize (S eq_refl). lia.
Qed.

Lemma chunks_complete txt p e :
  Chunks (major_of txt) (chunk_ok txt) p e ->
  forall r f, (2 * length e + 1 <= f)%nat -> chunks txt f (e ++ 255 :: r) = Ok (p, r).
Proof.
  induction 1 as [|p h q e Hh Hok HC IH]; intros r [|f] Hf; try (exfalso; lens); rewrite chunks_S.
  - cbn [app]. rewrite pull_break. reflexivity.
  - pose proof (Head_len _ _ _ Hh). rewrite <- !app_assoc.
    destruct (chunk_len_complete txt _ _ Hh) as (h' & HE & B & L).
    rewrite (pull_complete h' h) by exact HE. cbv beta iota.
    rewrite B, L, takeN_app, Hok, IH by lens. reflexivity.
Qed.

Lemma dec_item_pull f bs i r :
  dec_item f bs = Ok (i, r) -> exists h r', pull bs = Ok (h, r') /\ is_break h = false.
Proof.
  destruct f; [discriminate|]. cbn [dec_item].
  destruct (pull bs) as [[h r']|]; [|discriminate]. destruct h; try discriminate; eauto.
Qed.

Lemma app_indef b e t : [b] ++ e ++ 255 :: t = (b :: e ++ [255]) ++ t.
Proof. cbn [app]. rewrite <- app_assoc. reflexivity. Qed.

Ltac pulled h hd := rewrite (pull_complete h hd) by (constructor; auto); cbv beta iota.

Lemma dec_complete : forall f,
  (forall i e r, Enc i e -> (2 * length e <= f)%nat -> dec_item f (e ++ r) = Ok (i, r)) /\
  (forall l e r, EncL l e -> (2 * length e + 1 <= f)%nat ->
      dec_items f (lenN l) (e ++ r) = Ok (l, r) /\ dec_indef f (e ++ 255 :: r) = Ok (l, r)).
Proof.
  (* on the fuel, as the model recurses; an encoding is not empty, so without fuel there is none *)
  induction f as [|f [IHi IHl]].
  { split; [intros i e r HE Hf; apply Enc_len in HE|intros]; lia. }
  split.
  - intros i e r HE Hf. cbn [dec_item].
    destruct HE as [n h H|n h H|p h H|p e H|p h H Hu|p e H|l h e H HL|l e HL|l h e H HL|l e HL
                   |n i h e H HE|n H|n H1 H2|b H|b H|b H];
      try (pose proof (Head_len _ _ _ H)); rewrite <- ?app_assoc, <- ?app_indef.
    + pulled (HPos n) h. reflexivity.
    + pulled (HNeg n) h. reflexivity.
    + pulled (HBytes (Some (lenN p))) h. rewrite takeN_app. reflexivity.
    + pulled (HBytes None) [95]. rewrite (chunks_complete false p e H) by lens. reflexivity.
    + pulled (HText (Some (lenN p))) h. rewrite takeN_app, Hu. reflexivity.
    + pulled (HText None) [127]. rewrite (chunks_complete true p e H) by lens. reflexivity.
    + pulled (HArr (Some (lenN l))) h. destruct (IHl l e r HL ltac:(lens)) as [-> _]. reflexivity.
    + pulled (HArr None) [159]. destruct (IHl l e r HL ltac:(lens)) as [_ ->]. reflexivity.
    + pulled (HMap (Some (lenN l))) h. rewrite <- lenN_flat.
      destruct (IHl _ e r HL ltac:(lens)) as [-> _]. rewrite pair_up_of_flat. reflexivity.
    + pulled (HMap None) [191]. destruct (IHl _ e r HL ltac:(lens)) as [_ ->].
      rewrite pair_up_of_flat. reflexivity.
    + pulled (HTag n) h. rewrite (IHi i e r HE) by lens. reflexivity.
    + pulled (HSimple n) [224 + n]. reflexivity.
    + pulled (HSimple n) [248; n]. reflexivity.
    + pulled (HFloat (widen16 (be b))) (249 :: b). reflexivity.
    + pulled (HFloat (widen32 (be b))) (250 :: b). reflexivity.
    + pulled (HFloat (be b)) (251 :: b). reflexivity.
  - intros l e r HL Hf. destruct HL as [|i l e1 e2 HE HL].
    + split; [reflexivity|]. rewrite dec_indef_S. cbn [app]. rewrite pull_break. reflexivity.
    + pose proof (Enc_len _ _ HE). rewrite <- !app_assoc.
      pose proof (IHi i e1 (e2 ++ r) HE ltac:(lens)) as Di.
      pose proof (IHi i e1 (e2 ++ 255 :: r) HE ltac:(lens)) as Di'.
      destruct (IHl l e2 r HL ltac:(lens)) as [Dn Dd]. split.
      * cbn [dec_items]. rewrite lenN_cons, N.add_1_r.
        destruct (N.succ (lenN l) =? 0) eqn:E; [lia|]. rewrite Di, N.pred_succ, Dn. reflexivity.
      * rewrite dec_indef_S. destruct (dec_item_pull _ _ _ _ Di') as (h & r' & -> & ->).
        rewrite Di', Dd. reflexivity.
Qed.

Theorem decode_item_spec bs i r :
  wf_bytes bs -> (decode_item bs = Ok (i, r) <-> exists e, bs = e ++ r /\ Enc i e).
Proof.
  intros W. split.
  - intros H. eapply dec_item_sound; eauto.
  - intros (e & -> & HE). apply (proj1 (dec_complete _)); auto. unfold fuel_for. lens.
Qed.

Theorem decode_spec bs v :
  wf_bytes bs -> (decode_cbor bs = Ok v <-> exists x e r, bs = e ++ r /\ Enc x e /\ v = to_value x).
Proof.
  intros W. unfold decode_cbor. split.
  - destruct (decode_item bs) as [[i r]|e0] eqn:E; [|discriminate]. intros H; inversion H; subst.
    apply decode_item_spec in E as (e & -> & HE); auto. eauto 6.
  - intros (x & e & r & -> & HE & ->).
    assert (decode_item (e ++ r) = Ok (x, r)) as -> by (apply decode_item_spec; eauto). reflexivity.
Qed.

Theorem Enc_prefix_free x e r x' e' r' :
  wf_bytes (e ++ r) -> Enc x e -> Enc x' e' -> e ++ r = e' ++ r' -> x = x' /\ e = e'.
Proof.
  intros W H H' Heq.
  assert (E1 : decode_item (e ++ r) = Ok (x, r)) by (apply decode_item_spec; eauto).
  assert (E2 : decode_item (e ++ r) = Ok (x', r')) by (apply decode_item_spec; auto; rewrite Heq; eauto).
  rewrite E1 in E2. inversion E2; subst. split; auto. eapply app_inv_tail; eauto.
Qed.

(* the verdict and the value do not depend on which encoding of an item was supplied *)
Corollary encoding_independent x e1 e2 :
  wf_bytes e1 -> wf_bytes e2 -> Enc x e1 -> Enc x e2 -> decode_cbor e1 = Ok (to_value x) /\ decode_cbor e2 = Ok (to_value x).
Proof.
  intros W1 W2 H1 H2. split; apply decode_spec; auto; exists x; eexists; exists []; rewrite app_nil_r; auto.
Qed.

Theorem decode_total bs :
  wf_bytes bs -> (exists v, decode_cbor bs = Ok v) \/ (exists k, decode_cbor bs = Err k /\ k <> EFuel).
Proof.
  intros W. unfold decode_cbor, decode_item.
  pose proof (dec_fuel (fuel_for bs) bs W ltac:(unfold fuel_for; lia)) as H.
  destruct (dec_item (fuel_for bs) bs) as [[i r]|k]; [left; eauto|right]. exists k. split; congruence.
Qed.

(* the crate's Value has one Null for null (simple 22) and undefined (simple 23) *)
Theorem to_value_injective_refuted : exists x x', x <> x' /\ to_value x = to_value x'.
Proof. exists (ISimple 22), (ISimple 23). split; [discriminate|reflexivity]. Qed.

Fixpoint no_undefined (i : item) : bool :=
  match i with
  | ISimple n => negb (n =? 23)
  | IArr l => forallb no_undefined l
  | IMap l => forallb (fun kv => no_undefined (fst kv) && no_undefined (snd kv)) l
  | ITag _ i => no_undefined i
  | _ => true
  end.
