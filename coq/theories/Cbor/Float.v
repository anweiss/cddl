(* IEEE 754 values of bit patterns, scaled to integers, and exactness of the widening
   used by the decoder model (half::f16 -> f64, f32 -> f64). *)
From Cddl Require Import Base.Bytes Cbor.Wire.
From Coq Require Import ZifyBool.
Open Scope N_scope.

Inductive fclass := FNum (neg : bool) (scaled : N) | FInf (neg : bool) | FNaN.

(* value * 2^1074 of a finite pattern with [ebits] exponent bits and [mbits] mantissa bits
   (an integer for binary16, binary32 and binary64 alike) *)
Definition fdecode (ebits mbits : N) (x : N) : fclass :=
  let bias := 2 ^ (ebits - 1) - 1 in
  let s := 0 <? x / 2 ^ (ebits + mbits) in
  let e := (x / 2 ^ mbits) mod 2 ^ ebits in
  let m := x mod 2 ^ mbits in
  if e =? 2 ^ ebits - 1 then (if m =? 0 then FInf s else FNaN)
  else if e =? 0 then FNum s (m * 2 ^ (1074 + 1 - bias - mbits))
  else FNum s ((2 ^ mbits + m) * 2 ^ (1074 + e - bias - mbits)).

Definition f16 := fdecode 5 10.
Definition f32 := fdecode 8 23.
Definition f64 := fdecode 11 52.

Definition widen16_ok (x : N) : bool :=
  match f16 x, f64 (widen16 x) with
  | FNum s v, FNum s' v' => Bool.eqb s s' && (v =? v')
  | FInf s, FInf s' => Bool.eqb s s'
  | FNaN, FNaN => true
  | _, _ => false
  end.

(* [widen16_ok] and [widen32_ok] (Float32.v) at any format *)
Definition widen_ok (ebits mbits x : N) : bool :=
  match fdecode ebits mbits x, f64 (widen ebits mbits x) with
  | FNum s v, FNum s' v' => Bool.eqb s s' && (v =? v')
  | FInf s, FInf s' => Bool.eqb s s'
  | FNaN, FNaN => true
  | _, _ => false
  end.

Lemma f64_fields s E M X : X = s * 2 ^ 63 + E * 2 ^ 52 + M -> s <= 1 -> E < 2048 -> M < 2 ^ 52 ->
  f64 X =
  if E =? 2047 then (if M =? 0 then FInf (0 <? s) else FNaN)
  else if E =? 0 then FNum (0 <? s) (M * 2 ^ 0)
  else FNum (0 <? s) ((2 ^ 52 + M) * 2 ^ (1074 + E - 1023 - 52)).
Proof.
  intros HX Hs HE HM. unfold f64, fdecode. change (11 + 52) with 63. change (2 ^ 11) with 2048.
  replace (X / 2 ^ 63) with s by (apply N.div_unique with (E * 2 ^ 52 + M); lia).
  replace (X / 2 ^ 52) with (s * 2048 + E) by (apply N.div_unique with M; lia).
  replace ((s * 2048 + E) mod 2048) with E by (apply N.mod_unique with s; lia).
  replace (X mod 2 ^ 52) with M by (apply N.mod_unique with (s * 2048 + E); lia).
  reflexivity.
Qed.

Lemma pow_split a b c : a + b = c -> 2 ^ a * 2 ^ b = 2 ^ c.
Proof. intros <-. symmetry. apply N.pow_add_r. Qed.

(* a significand [sig] with leading bit 2^p, in the fields of a normal binary64 *)
Lemma f64_sig s E p sig X : X = s * 2 ^ 63 + E * 2 ^ 52 + (sig - 2 ^ p) * 2 ^ (52 - p) ->
  s <= 1 -> 0 < E < 2047 -> p <= 52 -> 2 ^ p <= sig < 2 ^ N.succ p ->
  f64 X = FNum (0 <? s) (sig * 2 ^ (52 - p + (E - 1))).
Proof.
  intros HX Hs HE Hp [Hlo Hhi].
  assert (HQ : 2 ^ p * 2 ^ (52 - p) = 2 ^ 52) by (apply pow_split; lia).
  rewrite (f64_fields s E ((sig - 2 ^ p) * 2 ^ (52 - p)) X HX Hs); [|lia|].
  - replace (E =? 2047) with false by lia. replace (E =? 0) with false by lia.
    f_equal. rewrite N.pow_add_r, N.mul_assoc. f_equal; [|f_equal; clear - HE; lia].
    rewrite <- HQ, <- N.mul_add_distr_r. f_equal. clear - Hlo. lia.
  - rewrite <- HQ. apply N.mul_lt_mono_pos_r; [apply N.neq_0_lt_0, N.pow_nonzero; discriminate|].
    rewrite N.pow_succ_r' in Hhi. clear - Hhi. lia.
Qed.

(* Widening is exact for every format that fits into binary64 with its subnormals becoming normal:
   the smallest subnormal, 2^(1 - bias - mbits), must be at least 2^-1022. *)
Theorem widen_exact ebits mbits x :
  0 < ebits -> mbits <= 52 -> 2 ^ (ebits - 1) + mbits <= 1024 -> x < 2 ^ (1 + ebits + mbits) ->
  widen_ok ebits mbits x = true.
Proof.
  intros Heb Hmb Hfit Hx. unfold widen_ok, widen, fdecode.
  assert (HB : 2 ^ ebits = 2 * 2 ^ (ebits - 1)) by (rewrite <- N.pow_succ_r'; f_equal; lia).
  rewrite HB. set (B := 2 ^ (ebits - 1)) in *.
  assert (B0 : B <> 0) by (apply N.pow_nonzero; discriminate).
  set (s := x / 2 ^ (ebits + mbits)). set (e := (x / 2 ^ mbits) mod (2 * B)). set (m := x mod 2 ^ mbits).
  assert (Hs : s <= 1).
  { apply N.lt_succ_r, N.div_lt_upper_bound; [apply N.pow_nonzero; discriminate|].
    rewrite N.mul_comm. change (N.succ 1) with 2. rewrite <- N.pow_succ_r'.
    replace (N.succ (ebits + mbits)) with (1 + ebits + mbits) by lia. exact Hx. }
  assert (He : e < 2 * B) by (apply N.mod_lt; intros E; apply B0; destruct B; [reflexivity|discriminate]).
  assert (Hm : m < 2 ^ mbits) by (apply N.mod_lt, N.pow_nonzero; discriminate).
  clearbody s e m B. clear Hx HB.
  destruct (e =? 2 * B - 1) eqn:Emax.
  - destruct (e =? 0) eqn:E0; [lia|].
    destruct (m =? 0) eqn:M0.
    + rewrite (f64_fields s 2047 0) by (exact Hs || reflexivity || lia). cbn [N.eqb Pos.eqb]. apply Bool.eqb_reflx.
    + reflexivity.
  - destruct (e =? 0) eqn:E0.
    + destruct (m =? 0) eqn:M0.
      * rewrite (f64_fields s 0 0) by (exact Hs || reflexivity || lia). cbn [N.eqb Pos.eqb].
        apply N.eqb_eq in M0. rewrite M0, Bool.eqb_reflx. reflexivity.
      * (* subnormals m * 2^(1 - bias - mbits) become normal: 2^k <= m < 2^(k+1) *)
        set (k := N.log2 m).
        destruct (N.log2_spec m ltac:(lia)) as [Hlo Hhi]. fold k in Hlo, Hhi. clearbody k.
        assert (Hk : k < mbits) by (apply (N.pow_lt_mono_r_iff 2); [lia|]; eapply N.le_lt_trans; eauto).
        rewrite (f64_sig s (k + 1023 + 1 - (B - 1) - mbits) k m);
          [|reflexivity|exact Hs|clear - Hfit B0 Hk Hmb; lia|lia|split; assumption].
        rewrite Bool.eqb_reflx. cbn [andb]. apply N.eqb_eq. do 2 f_equal. clear - Hfit B0 Hk Hmb. lia.
    + rewrite (f64_sig s (e + 1023 - (B - 1)) mbits (2 ^ mbits + m));
        [|do 2 f_equal; lia|exact Hs|clear - Hfit B0 He E0 Emax; lia|exact Hmb|rewrite N.pow_succ_r'; lia].
      rewrite Bool.eqb_reflx. cbn [andb]. apply N.eqb_eq. do 2 f_equal. clear - Hfit B0 He E0 Hmb. lia.
Qed.

Theorem widen16_exact x : x < 65536 -> widen16_ok x = true.
Proof. apply (widen_exact 5 10); [reflexivity|discriminate|discriminate]. Qed.
