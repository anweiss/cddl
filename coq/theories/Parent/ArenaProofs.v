(* C20 - proofs about the arena model (Parent/Arena.v) against the specification (Parent/Tree.v).
   An arena is read as a partial map [pl] from a label to the label of its parent. Under [wf] the query computes
   [pl], and running a list of events sets [pl l] to the parent of the FIRST event whose child is l (run_evs_spec).
   The events of [visit] are exactly the syntactic edges (position, parent label, child label) at the positions
   that [reg_path] accepts (visit_spec); the special order at an operator permutes and repeats events only.
   So a query returns the parent of the node at [first_reg] (first_reg_cases). With distinct labels a label
   determines its position (label_inj), which gives parent_correct; collision_iff reads off the same equation.
   At fx = true the visitor registers every child of every node, so [reg_path] holds of every position
   (reg_path_every_child), which gives the _every_child statements. *)
From Coq Require Import List NArith Bool Arith Lia.
From Cddl Require Import Base.Lists Parent.Tree Parent.Arena.
Import ListNotations.
Open Scope N_scope.

Definition val_at (a : arena) (i : nat) : option N := option_map a_val (nth_error a i).

(* two arenas because [scan] recurses over a suffix [a] and resolves parent indices in the whole arena [all] *)
Definition pl_in (all a : arena) (l : N) : option N :=
  match find_idx l a 0%nat with
  | Some i => match nth_error a i with
              | Some n => match a_parent n with Some pi => val_at all pi | None => None end
              | None => None
              end
  | None => None
  end.
Definition pl (a : arena) : N -> option N := pl_in a a.

(* what [node] and [insert] maintain: one entry per label, parent indices inside the arena *)
Definition wf (a : arena) : Prop :=
  NoDup (map a_val a) /\ forall n pi, In n a -> a_parent n = Some pi -> (pi < length a)%nat.

Lemma find_idx_vals : forall l a b i, map a_val a = map a_val b -> find_idx l a i = find_idx l b i.
Proof.
  intros l a; induction a as [|x a IH]; intros [|y b] i H; cbn in *; try discriminate; auto.
  injection H as Hv Hm. rewrite Hv. destruct (a_val y =? l); auto.
Qed.

Lemma find_idx_shift : forall l a i, find_idx l a i = option_map (Nat.add i) (find_idx l a 0%nat).
Proof.
  intros l a; induction a as [|x a IH]; intros i; cbn; [reflexivity|].
  destruct (a_val x =? l); [cbn; now rewrite Nat.add_0_r|].
  rewrite (IH (S i)), (IH 1%nat). destruct (find_idx l a 0%nat); cbn; [now rewrite Nat.add_succ_r|reflexivity].
Qed.

Lemma find_idx_cases : forall l a,
  match find_idx l a 0%nat with
  | Some j => exists n, nth_error a j = Some n /\ a_val n = l
  | None => ~ In l (map a_val a)
  end.
Proof.
  intros l a; induction a as [|x a IH]; cbn; [auto|].
  destruct (a_val x =? l) eqn:E.
  - exists x. split; [reflexivity|now apply N.eqb_eq].
  - apply N.eqb_neq in E. rewrite find_idx_shift. destruct (find_idx l a 0%nat); [exact IH|]. intros [H|H]; auto.
Qed.

Lemma find_idx_app : forall l a b i,
  find_idx l (a ++ b) i =
  match find_idx l a i with Some j => Some j | None => find_idx l b (i + length a)%nat end.
Proof.
  intros l a b; induction a as [|x a IH]; intros i; cbn; [now rewrite Nat.add_0_r|].
  destruct (a_val x =? l); [reflexivity|]. now rewrite IH, Nat.add_succ_r.
Qed.

Lemma find_idx_unique : forall a j n i, NoDup (map a_val a) -> nth_error a j = Some n ->
  find_idx (a_val n) a i = Some (i + j)%nat.
Proof.
  intros a j n i Hnd Hn. rewrite find_idx_shift. pose proof (find_idx_cases (a_val n) a) as F.
  destruct (find_idx (a_val n) a 0%nat) as [k|]; cbn.
  - destruct F as (m & Hm & Hv). do 2 f_equal. apply (proj1 (NoDup_nth_error _) Hnd).
    + rewrite map_length. apply nth_error_Some. congruence.
    + rewrite !nth_error_map, Hm, Hn. cbn. now rewrite Hv.
  - elim F. exact (in_map a_val _ _ (nth_error_In _ _ Hn)).
Qed.

Lemma val_at_vals : forall a b i, map a_val a = map a_val b -> val_at a i = val_at b i.
Proof. intros a b i H. unfold val_at. rewrite <- !nth_error_map. now rewrite H. Qed.

Lemma nth_error_ltb : forall (a : arena) i n, nth_error a i = Some n -> (i <? length a)%nat = true.
Proof. intros a i n H. apply Nat.ltb_lt, nth_error_Some. congruence. Qed.

Lemma scan_absent : forall all l a, ~ In l (map a_val a) -> scan all l a = None.
Proof.
  intros all l a; induction a as [|x a IH]; intros H; cbn in *; auto.
  destruct (a_val x =? l) eqn:E.
  - apply N.eqb_eq in E. exfalso; auto.
  - apply IH. intros H1; apply H; auto.
Qed.

Lemma scan_spec : forall all l a, NoDup (map a_val a) -> scan all l a = pl_in all a l.
Proof.
  intros all l a; unfold pl_in; induction a as [|x a IH]; intros Hnd; cbn; auto.
  cbn in Hnd. inversion Hnd as [|? ? Hnotin Hnd']; subst.
  destruct (a_val x =? l) eqn:E.
  - cbn. apply N.eqb_eq in E. subst l.
    destruct (a_parent x) as [pi|]; [|now apply scan_absent].
    unfold val_at. destruct (nth_error all pi); cbn; auto. now apply scan_absent.
  - rewrite (IH Hnd'), (find_idx_shift l a 1). now destruct (find_idx l a 0%nat).
Qed.

Lemma query_pl : forall a l, wf a -> query a l = pl a l.
Proof. intros a l [Hnd _]. exact (scan_spec a l a Hnd). Qed.

Lemma pl_app_parentless : forall a l0 l, wf a -> pl (a ++ [mk_anode l0 None]) l = pl a l.
Proof.
  intros a l0 l [_ Hval]. unfold pl, pl_in. rewrite find_idx_app.
  pose proof (find_idx_cases l a) as F. destruct (find_idx l a 0%nat) as [j|].
  - destruct F as (n & Hn & Hv).
    rewrite nth_error_app1 by (apply nth_error_Some; congruence). rewrite Hn.
    destruct (a_parent n) as [pi|] eqn:P; auto.
    unfold val_at. rewrite nth_error_app1; auto. exact (Hval n pi (nth_error_In _ _ Hn) P).
  - cbn. destruct (l0 =? l); auto.
    rewrite nth_error_app2 by lia. rewrite Nat.sub_diag. reflexivity.
Qed.

Lemma wf_app_parentless : forall a l0, wf a -> ~ In l0 (map a_val a) -> wf (a ++ [mk_anode l0 None]).
Proof.
  intros a l0 [Hnd Hval] Hnew. split.
  - rewrite map_app. apply (NoDup_Add (Add_app l0 _ [])). now rewrite app_nil_r.
  - intros n pi Hn Hp. rewrite app_length. apply in_app_or in Hn as [Hn|[<-|[]]]; [|discriminate].
    apply Nat.lt_lt_add_r, (Hval n pi Hn Hp).
Qed.

Lemma node_spec : forall a l a' i, wf a -> node a l = (a', i) ->
  wf a' /\ (exists n, nth_error a' i = Some n /\ a_val n = l) /\ (forall x, pl a' x = pl a x) /\
  (forall j n, nth_error a j = Some n -> nth_error a' j = Some n).
Proof.
  intros a l a' i Hwf H. unfold node in H. pose proof (find_idx_cases l a) as F.
  destruct (find_idx l a 0%nat) as [j|]; injection H as <- <-.
  - split; [exact Hwf|]. split; [exact F|]. split; auto.
  - split; [now apply wf_app_parentless|]. split; [|split].
    + exists (mk_anode l None). rewrite nth_error_app2, Nat.sub_diag by lia. auto.
    + intros x. now apply pl_app_parentless.
    + intros j n Hn. rewrite nth_error_app1; [exact Hn|]. apply nth_error_Some. congruence.
Qed.

Lemma set_parent_vals : forall a c p, map a_val (set_parent a c p) = map a_val a.
Proof.
  induction a as [|x a IH]; intros [|c] p; cbn; auto.
  - destruct (a_parent x); reflexivity.
  - now rewrite IH.
Qed.

Lemma set_parent_length : forall a c p, length (set_parent a c p) = length a.
Proof. intros. rewrite <- (map_length a_val), set_parent_vals. apply map_length. Qed.

Lemma set_parent_other : forall a c p j, j <> c -> nth_error (set_parent a c p) j = nth_error a j.
Proof.
  induction a as [|x a IH]; intros [|c] p [|j] H; cbn; auto; try congruence;
    try (destruct (a_parent x); reflexivity); try (apply IH; congruence).
Qed.

Lemma set_parent_same : forall a c p n, nth_error a c = Some n ->
  nth_error (set_parent a c p) c =
  Some (match a_parent n with None => mk_anode (a_val n) (Some p) | Some _ => n end).
Proof.
  induction a as [|x a IH]; intros [|c] p n H; cbn in *; try discriminate.
  - injection H as ->. destruct (a_parent n); reflexivity.
  - now apply IH.
Qed.

Lemma wf_set_parent : forall a c p nc, wf a -> nth_error a c = Some nc -> (p < length a)%nat -> wf (set_parent a c p).
Proof.
  intros a c p nc [Hnd Hval] Hnc Hp. split; [now rewrite set_parent_vals|].
  intros n q Hn Hq. rewrite set_parent_length. apply In_nth_error in Hn as [i Hn].
  destruct (Nat.eq_dec i c) as [->|Hne].
  - rewrite (set_parent_same _ _ _ _ Hnc) in Hn. injection Hn as <-.
    destruct (a_parent nc) eqn:Pc; [exact (Hval _ _ (nth_error_In _ _ Hnc) Hq)|]. injection Hq as <-. exact Hp.
  - rewrite set_parent_other in Hn by auto. exact (Hval _ _ (nth_error_In _ _ Hn) Hq).
Qed.

Lemma pl_set_parent : forall a c p nc np l, wf a -> nth_error a c = Some nc -> nth_error a p = Some np ->
  pl (set_parent a c p) l =
  if a_val nc =? l then match pl a l with Some x => Some x | None => Some (a_val np) end else pl a l.
Proof.
  intros a c p nc np l [Hnd Hval] Hnc Hnp. pose proof (set_parent_vals a c p) as Hv.
  unfold pl, pl_in. rewrite (find_idx_vals l _ a 0%nat Hv). destruct (a_val nc =? l) eqn:E.
  - apply N.eqb_eq in E. subst l. rewrite (find_idx_unique a c nc 0%nat Hnd Hnc). cbn [Nat.add].
    rewrite (set_parent_same _ _ _ _ Hnc), Hnc. destruct (a_parent nc) as [x|] eqn:Pc.
    + rewrite Pc, (val_at_vals _ a x Hv). unfold val_at.
      pose proof (Hval _ _ (nth_error_In _ _ Hnc) Pc) as Hx. apply nth_error_Some in Hx. destruct (nth_error a x); [reflexivity|congruence].
    + cbn [a_parent]. rewrite (val_at_vals _ a p Hv). unfold val_at. now rewrite Hnp.
  - pose proof (find_idx_cases l a) as F. destruct (find_idx l a 0%nat) as [j|]; [|reflexivity].
    destruct F as (n & Hn & Hl).
    rewrite set_parent_other, Hn.
    + destruct (a_parent n); [apply val_at_vals, Hv|reflexivity].
    + intros ->. rewrite Hnc in Hn. injection Hn as <-. apply N.eqb_neq in E. auto.
Qed.

Lemma run_ev_spec : forall a e, wf a ->
  exists a', run_ev a e = Some a' /\ wf a' /\
  forall l, pl a' l =
    if ev_child e =? l then match pl a l with Some x => Some x | None => Some (ev_parent e) end
    else pl a l.
Proof.
  intros a [pth lp lc] Hwf. unfold run_ev. cbn [ev_parent ev_child].
  destruct (node a lp) as [a1 pi] eqn:N1. destruct (node a1 lc) as [a2 ci] eqn:N2.
  destruct (node_spec _ _ _ _ Hwf N1) as (Hwf1 & (np & Hnp & Hvp) & Hpl1 & _).
  destruct (node_spec _ _ _ _ Hwf1 N2) as (Hwf2 & (nc & Hnc & Hvc) & Hpl2 & Hst2).
  apply Hst2 in Hnp.
  unfold insert. rewrite (nth_error_ltb _ _ _ Hnp), (nth_error_ltb _ _ _ Hnc). cbn.
  exists (set_parent a2 ci pi). split; [reflexivity|]. split.
  - apply (wf_set_parent _ _ _ nc Hwf2 Hnc). apply nth_error_Some. congruence.
  - intros l. now rewrite (pl_set_parent _ _ _ _ _ l Hwf2 Hnc Hnp), Hpl2, Hpl1, Hvc, Hvp.
Qed.

Lemma run_evs_spec : forall es a, wf a ->
  exists a', run_evs a es = Some a' /\ wf a' /\
  forall l, pl a' l =
    match pl a l with
    | Some x => Some x
    | None => option_map ev_parent (find (fun e => ev_child e =? l) es)
    end.
Proof.
  induction es as [|e es IH]; intros a Hwf; cbn.
  - exists a. split; [reflexivity|split; [exact Hwf|]]. intros l. destruct (pl a l); auto.
  - destruct (run_ev_spec a e Hwf) as (a1 & R1 & Hwf1 & Hpl1). rewrite R1.
    destruct (IH a1 Hwf1) as (a' & R & Hwf' & Hpl). exists a'. split; [exact R|split; [exact Hwf'|]].
    intros l. rewrite Hpl, Hpl1. destruct (ev_child e =? l); destruct (pl a l); auto.
Qed.

Lemma wf_init : forall l, wf (fst (node [] l)) /\ forall x, pl (fst (node [] l)) x = None.
Proof.
  intros l. cbn. split.
  - split; cbn; [repeat constructor; auto|]. intros n pi [<-|[]]. discriminate.
  - intros x. unfold pl, pl_in. cbn. destruct (l =? x); reflexivity.
Qed.

Section Fx.
Variable fx : bool.

Theorem build_query_first : forall t, exists a, build fx t = Some a /\
  forall l, query a l = option_map ev_parent (find (fun e => ev_child e =? l) (visit fx [] t)).
Proof.
  intros t. destruct (wf_init (label t)) as [Hwf0 Hpl0].
  destruct (run_evs_spec (visit fx [] t) _ Hwf0) as (a & R & Hwf & Hpl).
  exists a. split; [exact R|]. intros l. rewrite (query_pl a l Hwf), Hpl, Hpl0. reflexivity.
Qed.

Theorem build_succeeds : forall t, exists a, build fx t = Some a.
Proof. intros t. destruct (build_query_first t) as (a & H & _). eauto. Qed.

Theorem query_tree_first : forall t l,
  query_tree fx t l = option_map ev_parent (find (fun e => ev_child e =? l) (visit fx [] t)).
Proof. intros t l. unfold query_tree. destruct (build_query_first t) as (a & -> & H). apply H. Qed.

Lemma kids_In : forall f k l pre cs i e,
  In e (kids fx f k l pre i cs) <->
  exists j c, nth_error cs j = Some c /\ registered fx k (i + j) = true /\
              (e = Ev (pre ++ [(i + j)%nat]) l (label c) \/ In e (f (pre ++ [(i + j)%nat]) c)).
Proof.
  intros f k l pre cs; induction cs as [|c cs IH]; intros i e; cbn.
  - split; [intros []|intros (j & c & H & _); destruct j; discriminate].
  - rewrite in_app_iff, IH. split.
    + intros [H|(j & c' & Hn & Hr & He)].
      * exists 0%nat, c. rewrite Nat.add_0_r. destruct (registered fx k i); [|destruct H].
        repeat split; auto. destruct H as [H|H]; auto.
      * exists (S j), c'. rewrite Nat.add_succ_r. auto.
    + intros ([|j] & c' & Hn & Hr & He); cbn in Hn.
      * injection Hn as <-. rewrite Nat.add_0_r in *. left. rewrite Hr. destruct He as [He|He]; [left|right]; auto.
      * right. exists j, c'. rewrite Nat.add_succ_r in *. auto.
Qed.

Lemma registered_other : forall k i, k <> K_UNWRAP -> registered fx k i = true.
Proof. intros k i H. unfold registered. apply N.eqb_neq in H. rewrite H. apply orb_true_r. Qed.

Lemma visit_regular : forall pre k l cs, k <> K_TYPE1 ->
  visit fx pre (Node k l cs) = kids fx (visit fx) k l pre 0%nat cs.
Proof.
  intros pre k l cs H. apply N.eqb_neq in H.
  destruct cs as [|[ko lo [|c2 [|rco [|x1 r1]]]] [|t2 [|x2 r2]]]; try reflexivity. cbn [visit]. now rewrite H.
Qed.

(* the special order at an operator changes the sequence of the registrations (and repeats some), not their set *)
Lemma visit_In : forall pre k l cs e,
  In e (visit fx pre (Node k l cs)) <-> In e (kids fx (visit fx) k l pre 0%nat cs).
Proof.
  intros pre k l cs e.
  destruct cs as [|[ko lo [|c2 [|rco [|x1 r1]]]] [|t2 [|x2 r2]]]; try reflexivity.
  cbn [visit]. destruct ((k =? K_TYPE1) && (ko =? K_OPERATOR)) eqn:C; [|reflexivity].
  apply andb_true_iff in C as [Ck Cko]. apply N.eqb_eq in Ck, Cko. subst k ko.
  cbn [kids]. rewrite visit_regular by discriminate. cbn [kids]. rewrite !registered_other by discriminate.
  cbn [label]. repeat (rewrite in_app_iff || (progress (cbn [In app]))). tauto.
Qed.

Lemma tree_ind' (P : tree -> Prop) (H : forall k l cs, Forall P cs -> P (Node k l cs)) : forall t, P t.
Proof.
  fix IH 1. intros [k l cs]. apply H. induction cs as [|c cs IHcs]; constructor; [apply IH|exact IHcs].
Qed.

Lemma visit_spec_from : forall t pre p lp lc,
  In (Ev p lp lc) (visit fx pre t) <->
  exists s, p = pre ++ s /\ s <> [] /\ reg_path fx t s = true /\
  exists n q, node_at t s = Some n /\ parent_of t s = Some q /\ label n = lc /\ label q = lp.
Proof.
  induction t as [k l cs IH] using tree_ind'. intros pre p lp lc. rewrite visit_In, kids_In. cbn [Nat.add].
  rewrite Forall_forall in IH. split.
  - intros (j & c & Hn & Hr & [He|He]).
    + injection He as -> -> ->. exists [j]. repeat split; auto; [discriminate| |].
      * cbn. rewrite Hr, Hn. reflexivity.
      * exists c, (Node k l cs). cbn. rewrite Hn. auto.
    + apply (IH c (nth_error_In _ _ Hn)) in He as (s' & -> & Hne & Hreg & n & q & Hna & Hq & Hl1 & Hl2).
      exists (j :: s'). repeat split; [now rewrite <- app_assoc|discriminate| |].
      * cbn. rewrite Hr, Hn. exact Hreg.
      * exists n, q. cbn [node_at children]. rewrite Hn. repeat split; auto.
        destruct s' as [|x s']; [congruence|]. cbn [parent_of removelast node_at children] in *. rewrite Hn. exact Hq.
  - intros (s & -> & Hne & Hreg & n & q & Hna & Hq & Hl1 & Hl2).
    destruct s as [|j s']; [congruence|]. cbn in Hreg. apply andb_true_iff in Hreg as [Hr Hreg].
    cbn [node_at children] in Hna. destruct (nth_error cs j) as [c|] eqn:Hn; [|discriminate].
    exists j, c. repeat split; auto. destruct s' as [|x s'].
    + left. cbn in Hna, Hq. injection Hna as <-. injection Hq as <-. cbn in Hl2. now subst.
    + right. apply (IH c (nth_error_In _ _ Hn)). exists (x :: s'). repeat split; [now rewrite <- app_assoc|discriminate|exact Hreg|].
      exists n, q. repeat split; auto. cbn [parent_of removelast node_at children] in *. rewrite Hn in Hq. exact Hq.
Qed.

Theorem visit_spec : forall t p lp lc,
  In (Ev p lp lc) (visit fx [] t) <->
  p <> [] /\ reg_path fx t p = true /\
  exists n q, node_at t p = Some n /\ parent_of t p = Some q /\ label n = lc /\ label q = lp.
Proof.
  intros t p lp lc. rewrite visit_spec_from. split; [intros (s & -> & H); exact H | intros H; exists p; auto].
Qed.

Lemma node_at_label_In : forall p t n, node_at t p = Some n -> In (label n) (labels_preorder t).
Proof.
  induction p as [|i p IH]; intros [k l cs] n H; cbn in H.
  - injection H as <-. cbn. auto.
  - destruct (nth_error cs i) as [c|] eqn:Hn; [|discriminate]. cbn. right.
    apply in_flat_map. exists c. split; [eapply nth_error_In; eauto|auto].
Qed.

Lemma node_at_label_below : forall t i s n, node_at t (i :: s) = Some n ->
  In (label n) (flat_map labels_preorder (children t)).
Proof.
  intros t i s n H. cbn in H. destruct (nth_error (children t) i) as [c|] eqn:Hi; [|discriminate].
  apply in_flat_map. exists c. split; [eapply nth_error_In; eauto|eapply node_at_label_In; eauto].
Qed.

Lemma NoDup_flat_map_nth : forall (A B : Type) (f : A -> list B) cs, NoDup (flat_map f cs) ->
  forall i a, nth_error cs i = Some a -> NoDup (f a) /\
  forall j b x, nth_error cs j = Some b -> In x (f a) -> In x (f b) -> i = j.
Proof.
  intros A B f cs; induction cs as [|c cs IH]; intros Hnd i a Hi; [destruct i; discriminate|].
  cbn in Hnd. apply NoDup_app_inv in Hnd as (Hc & Hcs & Hd).
  assert (Hin : forall j b x, nth_error cs j = Some b -> In x (f b) -> In x (flat_map f cs)).
  { intros j b x Hj Hx. apply in_flat_map. exists b. split; [eapply nth_error_In; eauto|exact Hx]. }
  destruct i as [|i]; cbn in Hi.
  - injection Hi as ->. split; [exact Hc|]. intros [|j] b x Hj Ha Hb; [reflexivity|]. elim (Hd x Ha (Hin j b x Hj Hb)).
  - destruct (IH Hcs i a Hi) as [Ha Hij]. split; [exact Ha|]. intros [|j] b x Hj Hxa Hxb; cbn in Hj.
    + injection Hj as ->. elim (Hd x Hxb (Hin i a x Hi Hxa)).
    + f_equal. exact (Hij j b x Hj Hxa Hxb).
Qed.

Lemma node_at_root : forall t s n, NoDup (labels_preorder t) -> node_at t s = Some n -> label n = label t -> s = [].
Proof.
  intros [k l cs] [|j s] n Hnd Hn Hl; [reflexivity|]. cbn in Hnd, Hl. apply NoDup_cons_iff in Hnd as [Hnotin _].
  elim Hnotin. rewrite <- Hl. exact (node_at_label_below _ _ _ _ Hn).
Qed.

Lemma label_inj : forall t, NoDup (labels_preorder t) ->
  forall p p' n n', node_at t p = Some n -> node_at t p' = Some n' -> label n = label n' -> p = p'.
Proof.
  intros t Hnd p. revert t Hnd. induction p as [|i s IH]; intros t Hnd p' n n' H H' Hl.
  - injection H as <-. symmetry. now apply (node_at_root t p' n' Hnd H').
  - destruct p' as [|j s']; [injection H' as <-; exact (node_at_root t (i :: s) n Hnd H Hl)|].
    destruct t as [k l cs]. cbn in Hnd, H, H'. apply NoDup_cons_iff in Hnd as [_ Hnd].
    destruct (nth_error cs i) as [c|] eqn:Hi; [|discriminate].
    destruct (nth_error cs j) as [c'|] eqn:Hj; [|discriminate].
    destruct (NoDup_flat_map_nth _ _ _ cs Hnd i c Hi) as [Hc Hij].
    assert (i = j) as <-.
    { apply (Hij j c' (label n) Hj); [|rewrite Hl]; eapply node_at_label_In; eauto. }
    rewrite Hi in Hj. injection Hj as <-. f_equal. exact (IH c Hc s' n n' H H' Hl).
Qed.

(* the answer to a query and the node it comes from, by cases on [first_reg] *)
Lemma first_reg_cases : forall t l,
  match first_reg fx t l with
  | Some p' => p' <> [] /\ reg_path fx t p' = true /\ exists n' q', node_at t p' = Some n' /\ label n' = l /\
               parent_of t p' = Some q' /\ query_tree fx t l = Some (label q')
  | None => query_tree fx t l = None /\
            forall p n q, node_at t p = Some n -> parent_of t p = Some q -> reg_path fx t p = true -> label n <> l
  end.
Proof.
  intros t l. rewrite query_tree_first. unfold first_reg, first_reg_in.
  destruct (find (fun e => ev_child e =? l) (visit fx [] t)) as [[p' lp lc]|] eqn:F; cbn.
  - apply find_some in F as [Hin He]. apply N.eqb_eq in He. cbn in He. subst lc.
    apply visit_spec in Hin as (Hne & Hreg & n & q & Hn & Hq & Hl & <-). eauto 8.
  - split; [reflexivity|]. intros p n q Hn Hq Hreg Hl.
    assert (Hin : In (Ev p (label q) (label n)) (visit fx [] t)).
    { apply visit_spec. split; [intros ->; discriminate|eauto 8]. }
    apply (find_none _ _ F) in Hin. cbn in Hin. apply N.eqb_neq in Hin. auto.
Qed.

Theorem parent_correct : forall t, NoDup (labels_preorder t) ->
  forall p n, node_at t p = Some n -> reg_path fx t p = true ->
  query_tree fx t (label n) = option_map label (parent_of t p).
Proof.
  intros t Hnd p n Hn Hreg. pose proof (first_reg_cases t (label n)) as H.
  destruct (first_reg fx t (label n)) as [p'|].
  - destruct H as (_ & _ & n' & q' & Hn' & Hl & Hq' & ->).
    now rewrite <- (label_inj t Hnd p' p n' n Hn' Hn Hl), Hq'.
  - destruct H as [-> H]. destruct (parent_of t p) as [q|] eqn:Hq; [|reflexivity]. elim (H p n q); auto.
Qed.

Theorem unindexed_none : forall t, NoDup (labels_preorder t) ->
  forall p n, node_at t p = Some n -> reg_path fx t p = false -> query_tree fx t (label n) = None.
Proof.
  intros t Hnd p n Hn Hreg. pose proof (first_reg_cases t (label n)) as H.
  destruct (first_reg fx t (label n)) as [p'|]; [|apply H].
  destruct H as (_ & Hr & n' & _ & Hn' & Hl & _).
  rewrite (label_inj t Hnd p' p n' n Hn' Hn Hl) in Hr. congruence.
Qed.

Theorem root_no_parent : forall t,
  ~ In (label t) (flat_map labels_preorder (children t)) -> query_tree fx t (label t) = None.
Proof.
  intros t H. pose proof (first_reg_cases t (label t)) as C.
  destruct (first_reg fx t (label t)) as [p'|]; [|apply C]. destruct C as (Hne & _ & n' & _ & Hn' & Hl & _).
  destruct p' as [|i s]; [congruence|]. elim H. rewrite <- Hl. exact (node_at_label_below _ _ _ _ Hn').
Qed.

Theorem root_no_parent_nodup : forall t, NoDup (labels_preorder t) -> query_tree fx t (label t) = None.
Proof.
  intros [k l cs] H. apply root_no_parent. cbn in *. now inversion H.
Qed.

Theorem collision_iff : forall t p n q,
  node_at t p = Some n -> parent_of t p = Some q -> reg_path fx t p = true ->
  (query_tree fx t (label n) <> Some (label q) <->
   exists p' n' q', first_reg fx t (label n) = Some p' /\ node_at t p' = Some n' /\ label n' = label n /\
                    parent_of t p' = Some q' /\ label q' <> label q).
Proof.
  intros t p n q Hn Hq Hreg. pose proof (first_reg_cases t (label n)) as H.
  destruct (first_reg fx t (label n)) as [p'|].
  - destruct H as (_ & _ & n' & q' & Hn' & Hl & Hq' & ->). split.
    + intros H. exists p', n', q'. repeat split; auto. congruence.
    + intros (p2 & n2 & q2 & F2 & _ & _ & Hq2 & Hd) H. injection F2 as <-.
      rewrite Hq' in Hq2. injection Hq2 as <-. injection H as H. auto.
  - elim (proj2 H p n q); auto.
Qed.

Lemma find_first : forall (A : Type) (f : A -> bool) xs e, find f xs = Some e ->
  exists pre post, xs = pre ++ e :: post /\ f e = true /\ forall x, In x pre -> f x = false.
Proof.
  intros A f xs; induction xs as [|a xs IH]; intros e H; cbn in H; [discriminate|].
  destruct (f a) eqn:Fa.
  - injection H as <-. exists [], xs. repeat split; auto. intros x [].
  - destruct (IH e H) as (pre & post & -> & Fe & Hpre). exists (a :: pre), post. repeat split; auto.
    intros x [<-|Hx]; auto.
Qed.

(* "first" means: registered before every other node with that label *)
Theorem first_reg_earliest : forall t l p', first_reg fx t l = Some p' ->
  exists pre e post, visit fx [] t = pre ++ e :: post /\ ev_path e = p' /\ ev_child e = l /\
                     forall x, In x pre -> ev_child x <> l.
Proof.
  intros t l p' H. unfold first_reg, first_reg_in in H.
  destruct (find (fun e => ev_child e =? l) (visit fx [] t)) as [e|] eqn:F; [|discriminate].
  cbn in H. injection H as <-. apply find_first in F as (pre & post & E & Fe & Hpre).
  exists pre, e, post. repeat split; auto; [now apply N.eqb_eq|].
  intros x Hx. apply Hpre in Hx. now apply N.eqb_neq.
Qed.

End Fx.

Lemma reg_path_every_child : forall p t n, node_at t p = Some n -> reg_path true t p = true.
Proof.
  induction p as [|i p IH]; intros t n H; [reflexivity|]. cbn in *.
  destruct (nth_error (children t) i) as [c|]; [|discriminate]. eauto.
Qed.

(* the full statement holds whenever no two nodes of the document are equal *)
Theorem parent_correct_every_child : forall t, NoDup (labels_preorder t) ->
  forall p n, node_at t p = Some n -> query_tree true t (label n) = option_map label (parent_of t p).
Proof. intros t Hnd p n Hn. exact (parent_correct true t Hnd p n Hn (reg_path_every_child p t n Hn)). Qed.

Theorem visit_spec_every_child : forall t p lp lc,
  In (Ev p lp lc) (visit true [] t) <->
  p <> [] /\ exists n q, node_at t p = Some n /\ parent_of t p = Some q /\ label n = lc /\ label q = lp.
Proof.
  intros t p lp lc. rewrite visit_spec. split.
  - intros (H1 & _ & H2). auto.
  - intros (H1 & n & q & Hn & H2). split; [exact H1|]. split; [exact (reg_path_every_child p t n Hn)|]. exists n, q. auto.
Qed.

Theorem query_is_first_registered_every_child : forall t l,
  (first_reg true t l = None /\ query_tree true t l = None) \/
  (exists p' n' q', first_reg true t l = Some p' /\ p' <> [] /\ node_at t p' = Some n' /\
                    label n' = l /\ parent_of t p' = Some q' /\ query_tree true t l = Some (label q')).
Proof.
  intros t l. pose proof (first_reg_cases true t l) as H. destruct (first_reg true t l) as [p'|]; [right|left; tauto].
  destruct H as (Hne & _ & n' & q' & H). exists p', n', q'. tauto.
Qed.

Theorem collision_iff_every_child : forall t p n q,
  node_at t p = Some n -> parent_of t p = Some q ->
  (query_tree true t (label n) <> Some (label q) <->
   exists p' n' q', first_reg true t (label n) = Some p' /\ node_at t p' = Some n' /\ label n' = label n /\
                    parent_of t p' = Some q' /\ label q' <> label q).
Proof. intros t p n q Hn Hq. exact (collision_iff true t p n q Hn Hq (reg_path_every_child p t n Hn)). Qed.

Fixpoint nodupb (l : list N) : bool :=
  match l with [] => true | x :: r => negb (existsb (N.eqb x) r) && nodupb r end.

Lemma nodupb_NoDup : forall l, nodupb l = true -> NoDup l.
Proof.
  induction l as [|x r IH]; cbn; intros H; constructor; apply andb_true_iff in H as [Hx Hr]; [|exact (IH Hr)].
  intros Hin. rewrite (proj2 (existsb_exists _ r)) in Hx; [discriminate|]. exists x. split; [exact Hin|apply N.eqb_refl].
Qed.

(* `a = [int, int]` as the driver sees it: the two TypeGroupnameEntry values (label 11) and the two
   identifiers `int` (label 12) are equal under the crate's ==, their GroupEntry parents (10, 13) are not *)
Definition doc_int_int : tree :=
  Node 0 0 [Node 1 1 [Node 2 2 [Node 11 3 []; Node 12 4 [Node 13 5 [Node 14 6 [Node 110 7 [Node 4 8 [Node 5 9
    [Node 10 10 [Node 23 11 [Node 11 12 []]]; Node 10 13 [Node 23 11 [Node 11 12 []]]]]]]]]]]].
Definition path_second_tge : path := [0; 0; 1; 0; 0; 0; 0; 0; 1; 0]%nat.

(* the collision shows at fx = false as well as at fx = true *)
Theorem parent_refuted : exists t p n,
  node_at t p = Some n /\ reg_path false t p = true /\
  query_tree false t (label n) <> option_map label (parent_of t p).
Proof.
  exists doc_int_int, path_second_tge, (Node 23 11 [Node 11 12 []]).
  split; [reflexivity|]. split; [reflexivity|]. vm_compute. discriminate.
Qed.

Theorem parent_refuted_every_child : exists t p n,
  node_at t p = Some n /\ query_tree true t (label n) <> option_map label (parent_of t p).
Proof.
  exists doc_int_int, path_second_tge, (Node 23 11 [Node 11 12 []]).
  split; [reflexivity|]. vm_compute. discriminate.
Qed.

(* `a = ~b<int>`: all labels distinct, yet at fx = false the nodes of the generic arguments are never indexed *)
Definition doc_unwrap_args : tree :=
  Node 0 0 [Node 1 1 [Node 2 2 [Node 11 3 []; Node 12 4 [Node 13 5 [Node 14 6 [Node 111 7
    [Node 11 8 []; Node 8 9 [Node 9 10 [Node 14 11 [Node 107 12 [Node 11 13 []]]]]]]]]]]].
Definition path_unwrap_args : path := [0; 0; 1; 0; 0; 0; 1]%nat.

Theorem parent_unindexed_refuted : exists t p n,
  NoDup (labels_preorder t) /\ node_at t p = Some n /\
  query_tree false t (label n) <> option_map label (parent_of t p).
Proof.
  exists doc_unwrap_args, path_unwrap_args, (Node 8 9 [Node 9 10 [Node 14 11 [Node 107 12 [Node 11 13 []]]]]).
  split; [apply nodupb_NoDup; vm_compute; reflexivity|]. split; [reflexivity|]. vm_compute. discriminate.
Qed.

(* the GenericArgs node (label 9) of `a = ~b<int>` has no parent at fx = false (the Type2::Unwrap arm before /repo commit
   2a3eb9a) and reports the Type2::Unwrap node (label 7) at fx = true *)
Theorem unwrap_args_indexed :
  query_tree false doc_unwrap_args 9 = None /\ query_tree true doc_unwrap_args 9 = Some 7 /\
  option_map label (parent_of doc_unwrap_args path_unwrap_args) = Some 7.
Proof. vm_compute. repeat split. Qed.
