(* C07 - proofs about try_unescape_text (Lit/TextLit.v) against the escape denotation of Lit/Spec.v *)
From Coq Require Import ZifyBool ZifyNat ZifyN.
From Cddl Require Import Base.Bytes Base.Lists Lit.IntLit Lit.Grammar Lit.TextLit Lit.Spec Lit.Digits.
Open Scope N_scope.

Lemma u32_hex : forall s v, positional 16 s = Some v -> u32_from_str_radix 16 s = bounded u32_max (Some v).
Proof.
  intros s v H. unfold u32_from_str_radix. change 16 with (N.of_nat 16).
  rewrite from_str_radix_spec, H; [reflexivity | lia |].
  destruct s as [|c r]; [discriminate|]. cbn [hd]. intros ->.
  unfold positional in H. cbn [positional_acc] in H. rewrite digit_value_16 in H. discriminate H.
Qed.

Lemma braced_eq : forall hex w, positional 16 hex = Some w ->
  braced_char hex = if is_scalar w then Some w else None.
Proof.
  intros hex w H. unfold braced_char. rewrite (u32_hex hex w H). unfold bounded, u32_max.
  destruct (w <=? 4294967295) eqn:E; [reflexivity|].
  unfold is_scalar. replace (w <=? 1114111) with false by lia. reflexivity.
Qed.

Lemma hex4 : forall a b c d,
  match positional 16 [a; b; c; d] with
  | Some w => is_hexdig a && is_hexdig b && is_hexdig c && is_hexdig d = true
              /\ u32_from_str_radix 16 [a; b; c; d] = Some w /\ w < 65536
  | None => is_hexdig a && is_hexdig b && is_hexdig c && is_hexdig d = false
  end.
Proof.
  intros a b c d. pose proof (positional_hexdigs [a; b; c; d]) as Hd. cbn [nonempty is_nil negb forallb andb] in Hd.
  rewrite andb_true_r, !andb_assoc in Hd.
  destruct (positional 16 [a; b; c; d]) as [w|] eqn:H; [|exact Hd].
  assert (Hw : w < 65536) by (apply positional_acc_lt in H; exact H).
  split; [exact Hd|]. split; [|exact Hw]. rewrite (u32_hex _ w H). unfold bounded, u32_max.
  replace (w <=? 4294967295) with true by lia. reflexivity.
Qed.

Lemma u32_brace_none : forall l, u32_from_str_radix 16 (123 :: l) = None.
Proof. intros l. destruct l; reflexivity. Qed.
Lemma positional_brace_none : forall l, positional 16 (123 :: l) = None.
Proof. intros l. reflexivity. Qed.

Lemma simple_escape_none : forall e, simple_escape 34 e = None -> is_simple_escape e = false.
Proof.
  intros e. unfold simple_escape, is_simple_escape.
  repeat (destruct (e =? _); [discriminate|]). reflexivity.
Qed.

Lemma cons_opt_if : forall v (b : bool) o, cons_opt v (if b then o else None) = if b then push v o else None.
Proof. intros v [|] [l|]; reflexivity. Qed.

(* On s the denotation is the model restricted to the grammar.  Each kind of step of the three machines (plain
   character, simple escape, \u{...}, \uXXXX alone or as a surrogate pair) carries this from the rest of the string to
   the string; denote_model chains the steps. *)
Definition agree (s : list N) : Prop :=
  denote_st 34 DNorm s = if text_inner_ok TNorm s then unescape_st UNorm s else None.

Lemma plain_step : forall c r, c <> 34 -> c <> 92 -> agree r -> agree (c :: r).
Proof.
  intros c r Hq Hb Hr. apply N.eqb_neq in Hq, Hb. unfold agree. cbn [denote_st text_inner_ok unescape_st].
  rewrite Hq, Hb, Hr. apply cons_opt_if.
Qed.

Lemma simple_step : forall e v r, simple_escape 34 e = Some v -> agree r -> agree (92 :: e :: r).
Proof.
  intros e v r Hv Hr. unfold agree. revert Hv. unfold simple_escape.
  repeat (destruct (e =? _) eqn:E; [apply N.eqb_eq in E; subst e; intros [= <-]; cbn; rewrite Hr; apply cons_opt_if|clear E]).
  discriminate.
Qed.

Lemma other_escape : forall e r, simple_escape 34 e = None -> e <> 117 -> agree (92 :: e :: r).
Proof.
  intros e r He Hu. apply N.eqb_neq in Hu. unfold agree. cbn [denote_st text_inner_ok]. simpl (92 =? _). cbv iota. cbn [negb].
  rewrite He, (simple_escape_none e He), Hu. reflexivity.
Qed.

(* inside \u{ , acc being the characters read since the brace: if one of them is not a hex digit the grammar has
   refused already and the denotation will fail at the closing brace *)
Lemma brace_agree : forall s acc, (forall t, (length t < length s)%nat -> agree t) ->
  denote_st 34 (DBrace acc) s =
  if forallb is_hexdig acc && text_inner_ok (TBrace (nonempty acc)) s then unescape_st (UBrace acc) s else None.
Proof.
  induction s as [|c r IH]; intros acc Hs; cbn [denote_st text_inner_ok unescape_st]; [rewrite andb_false_r; reflexivity|].
  cbn [length] in Hs. destruct (c =? 125).
  - pose proof (positional_hexdigs (rev acc)) as Hp. rewrite forallb_rev in Hp.
    replace (nonempty (rev acc)) with (nonempty acc) in Hp by (destruct acc; [reflexivity|]; cbn [rev]; destruct (rev acc); reflexivity).
    destruct (positional 16 (rev acc)) as [w|] eqn:Ep.
    + apply andb_prop in Hp. destruct Hp as [-> ->]. rewrite (braced_eq _ w Ep), (Hs r) by lia. cbn [andb].
      destruct (is_scalar w); [apply cons_opt_if | destruct (text_inner_ok TNorm r); reflexivity].
    + rewrite andb_assoc, (andb_comm (forallb _ _)), Hp. reflexivity.
  - rewrite IH by (intros t Ht; apply Hs; lia). cbn [forallb nonempty is_nil negb].
    rewrite andb_assoc, (andb_comm (forallb _ _)). reflexivity.
Qed.

Lemma u4_step : forall a r, a <> 123 -> (forall t, (length t < length r)%nat -> agree t) ->
  agree (92 :: 117 :: a :: r).
Proof.
  intros a r Ha IH. apply N.eqb_neq in Ha. unfold agree. cbn -[positional u32_from_str_radix is_hexdig]. rewrite Ha.
  destruct r as [|b [|c [|d r]]]; try reflexivity. cbn [length] in IH.
  pose proof (hex4 a b c d) as H4.
  destruct (positional 16 [a; b; c; d]) as [w|]; [destruct H4 as (-> & -> & Hw) | rewrite H4; reflexivity].
  cbn [andb]. unfold is_high_surrogate, is_low_surrogate.
  destruct ((55296 <=? w) && (w <=? 56319)) eqn:Ehi.
  2:{ (* below 2^16 and not a high surrogate: a scalar value unless a low surrogate *)
      rewrite (IH r) by lia. unfold char_from_u32.
      replace ((w <=? 1114111) && negb ((55296 <=? w) && (w <=? 57343)))
        with (negb ((56320 <=? w) && (w <=? 57343))) by lia.
      destruct ((56320 <=? w) && (w <=? 57343)); [destruct (text_inner_ok TNorm r); reflexivity | apply cons_opt_if]. }
  (* a high surrogate must be followed by an escaped low surrogate *)
  destruct r as [|bs [|u r]]; [reflexivity | destruct (text_inner_ok TNorm [bs]); reflexivity |].
  destruct ((bs =? 92) && (u =? 117)) eqn:Ebu;
    [|destruct (text_inner_ok TNorm (bs :: u :: r)); destruct r as [|l1 [|l2 [|l3 [|l4 r]]]]; reflexivity].
  apply andb_prop in Ebu. destruct Ebu as [Ebs Eu]. apply N.eqb_eq in Ebs, Eu. subst bs u.
  cbn -[positional u32_from_str_radix is_hexdig].
  destruct r as [|l1 r]; [reflexivity|].
  destruct (l1 =? 123) eqn:El1.
  { apply N.eqb_eq in El1. subst l1. destruct (text_inner_ok (TBrace false) r);
      destruct r as [|l2 [|l3 [|l4 r]]]; try rewrite u32_brace_none; reflexivity. }
  destruct r as [|l2 [|l3 [|l4 r]]]; try reflexivity. cbn [length] in IH.
  pose proof (hex4 l1 l2 l3 l4) as H4.
  destruct (positional 16 [l1; l2; l3; l4]) as [lo|]; [destruct H4 as (-> & -> & Hlo) | rewrite H4; reflexivity].
  cbn [andb]. rewrite (IH r) by lia.
  destruct ((56320 <=? lo) && (lo <=? 57343)) eqn:Elo; [|destruct (text_inner_ok TNorm r); reflexivity].
  unfold char_from_u32.
  replace ((65536 + (w - 55296) * 1024 + (lo - 56320) <=? 1114111)
           && negb ((55296 <=? 65536 + (w - 55296) * 1024 + (lo - 56320))
                    && (65536 + (w - 55296) * 1024 + (lo - 56320) <=? 57343))) with true by lia.
  apply cons_opt_if.
Qed.

(* a step consumes up to twelve characters (an escaped surrogate pair), hence the induction on the length *)
Theorem denote_model : forall s,
  denote_st 34 DNorm s = if text_inner_ok TNorm s then unescape_st UNorm s else None.
Proof.
  intros s. change (agree s). induction s as [s IH] using (induction_ltof1 _ (@length N)). unfold ltof in IH.
  destruct s as [|c r]; [reflexivity|].
  destruct (N.eqb_spec c 34) as [->|Hq]; [reflexivity|].
  destruct (N.eqb_spec c 92) as [->|Hb]; [|apply (plain_step c r Hq Hb), IH; cbn [length]; lia].
  destruct r as [|e r]; [reflexivity|].
  destruct (simple_escape 34 e) as [v|] eqn:Ese; [apply (simple_step e v r Ese), IH; cbn [length]; lia|].
  destruct (N.eqb_spec e 117) as [->|Hu]; [|apply (other_escape e r Ese Hu)].
  destruct r as [|a r]; [reflexivity|].
  destruct (N.eqb_spec a 123) as [->|Ha].
  - apply (brace_agree r []). intros t Ht. apply IH. cbn [length]. lia.
  - apply (u4_step a r Ha). intros t Ht. apply IH. cbn [length]. lia.
Qed.

Lemma between_last : forall k q tok,
  between k q tok = if last_is q (skipn k tok) then Some (strip_quotes k tok) else None.
Proof. intros k q tok. unfold between, last_is, strip_quotes. destruct (rev (skipn k tok)); reflexivity. Qed.

Lemma between_strip : forall k q tok c, between k q tok = Some c -> strip_quotes k tok = c.
Proof.
  intros k q tok c H. rewrite between_last in H. destruct (last_is q _); [|discriminate]. injection H as H. exact H.
Qed.

Lemma text_spelling_between : forall tok,
  text_spelling tok =
  opens_with [34] tok && match between 1 34 tok with Some c => text_inner_ok TNorm c | None => false end.
Proof.
  intros [|q r]; [reflexivity|]. unfold text_spelling, opens_with, between, nonempty, last_is, strip_last.
  cbn [length Nat.leb combine forallb fst snd skipn andb]. rewrite (N.eqb_sym 34 q).
  destruct (rev r) as [|x rr] eqn:Er.
  - rewrite !andb_false_r. reflexivity.
  - destruct r; [discriminate Er|]. destruct (q =? 34), (x =? 34); reflexivity.
Qed.

(* on every token the specification is the model restricted to the grammar *)
Theorem text_lit_model : forall tok, text_lit tok = if text_spelling tok then text_value_model tok else None.
Proof.
  intros tok. rewrite text_spelling_between. unfold text_lit, text_value_model, try_unescape_text.
  destruct (opens_with [34] tok); [|reflexivity]. destruct (between 1 34 tok) as [c|] eqn:Eb; [|reflexivity].
  cbn [obind andb]. rewrite denote_model, (between_strip _ _ _ _ Eb). reflexivity.
Qed.

(* text_ok: every text literal the grammar admits is stored with exactly its RFC 9682 value, or rejected exactly
   when it has none *)
Theorem text_ok : forall tok, text_spelling tok = true -> text_value_model tok = text_lit tok.
Proof. intros tok Hg. rewrite text_lit_model, Hg. reflexivity. Qed.

Theorem text_lit_grammar : forall tok v, text_lit tok = Some v -> text_spelling tok = true.
Proof. intros tok v H. rewrite text_lit_model in H. destruct (text_spelling tok); [reflexivity | discriminate]. Qed.

(* the witnesses of the finding repaired by 51d94c0 (a \u escape without scalar value silently dropped) are rejected *)
Example text_rejections :
  text_spelling [34; 92; 117; 100; 56; 48; 48; 34] = true                                   (* "\ud800" *)
  /\ text_value_model [34; 92; 117; 100; 56; 48; 48; 34] = None
  /\ text_spelling [34; 92; 117; 68; 56; 48; 48; 92; 117; 48; 48; 52; 49; 34] = true        (* "\uD800\u0041" *)
  /\ text_value_model [34; 92; 117; 68; 56; 48; 48; 92; 117; 48; 48; 52; 49; 34] = None
  /\ text_spelling [34; 92; 117; 123; 49; 49; 48; 48; 48; 48; 125; 34] = true               (* "\u{110000}" *)
  /\ text_value_model [34; 92; 117; 123; 49; 49; 48; 48; 48; 48; 125; 34] = None.
Proof. vm_compute. repeat split; reflexivity. Qed.

(* a, \u0041, the surrogate pair \uD83C\uDC73, \u{1F073}, \n *)
Example text_example :
  text_value_model [34; 97; 92;117;48;48;52;49; 92;117;68;56;51;67; 92;117;68;67;55;51; 92;117;123;49;70;48;55;51;125; 92;110; 34]
  = Some [97; 65; 127091; 127091; 10].
Proof. vm_compute. reflexivity. Qed.
