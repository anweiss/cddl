(* C07 - digits: the alphabets of Lit/Spec.v (index_of, digit_value, positional) against the arithmetic readers of the
   model (char::to_digit, data_encoding's hex values, the checked digit loop of from_str_radix), for every radix up
   to 16.  The common currency is BytesLit.hex_value: digit_value r c is hex_value c kept when it is below r. *)
From Coq Require Import ZifyBool ZifyNat ZifyN.
From Cddl Require Import Base.Lists.
From Cddl Require Import Base.Bytes Lit.IntLit Lit.Grammar Lit.BytesLit Lit.Spec.
(* global, and the importing files rely on them: without the line for N.add Lit/TextProofs.v does not finish *)
Arguments N.add : simpl never.
Arguments N.mul : simpl never.
Arguments N.sub : simpl never.
Arguments N.div : simpl never.
Arguments N.modulo : simpl never.
Arguments N.pow : simpl never.
Open Scope N_scope.

Lemma forallb_below : forall (p : N -> bool) (n : nat),
  forallb p (map N.of_nat (seq 0 n)) = true -> forall c, c < N.of_nat n -> p c = true.
Proof.
  intros p n Hall c Hc.
  rewrite forallb_forall in Hall. apply Hall.
  apply in_map_iff. exists (N.to_nat c). split; [lia|]. apply in_seq. lia.
Qed.

Definition opt_eqb (a b : option N) : bool :=
  match a, b with Some x, Some y => x =? y | None, None => true | _, _ => false end.

Lemma opt_eqb_eq : forall a b, opt_eqb a b = true -> a = b.
Proof. intros [x|] [y|] H; try discriminate; [apply N.eqb_eq in H; congruence | reflexivity]. Qed.

Lemma table_eq : forall (f g : N -> option N) (m : nat),
  (forall c, N.of_nat m <= c -> f c = None) -> (forall c, N.of_nat m <= c -> g c = None) ->
  forallb (fun c => opt_eqb (f c) (g c)) (map N.of_nat (seq 0 m)) = true -> forall c, f c = g c.
Proof.
  intros f g m Hf Hg Hall c. destruct (N.lt_ge_cases c (N.of_nat m)) as [Hlt|Hge].
  - apply opt_eqb_eq, (forallb_below _ m Hall), Hlt.
  - rewrite Hf, Hg by exact Hge. reflexivity.
Qed.

Lemma index_of_lt : forall c l i, index_of c l = Some i -> i < lenN l.
Proof.
  induction l as [|a l IH]; intros i H; cbn [index_of] in H; [discriminate|].
  unfold lenN in *. cbn [length]. destruct (c =? a); [inversion H; lia|].
  destruct (index_of c l) as [j|]; [|discriminate]. specialize (IH j eq_refl). inversion H. lia.
Qed.

Lemma index_of_ge : forall c l m, forallb (fun a => a <? m) l = true -> m <= c -> index_of c l = None.
Proof.
  induction l as [|a l IH]; intros m Hl Hc; [reflexivity|].
  cbn [forallb index_of] in *. apply andb_prop in Hl. destruct Hl as [Ha Hl].
  replace (c =? a) with false by lia. rewrite (IH m Hl Hc). reflexivity.
Qed.

Lemma index_of_firstn : forall c n l,
  index_of c (firstn n l) =
  match index_of c l with Some i => if i <? N.of_nat n then Some i else None | None => None end.
Proof.
  induction n as [|n IH]; intros l.
  - destruct (index_of c l) as [i|]; [replace (i <? N.of_nat 0) with false by lia|]; reflexivity.
  - destruct l as [|a l]; [reflexivity|]. cbn [firstn index_of]. rewrite IH.
    destruct (c =? a); [reflexivity|]. destruct (index_of c l) as [i|]; [|reflexivity].
    replace (i + 1 <? N.of_nat (S n)) with (i <? N.of_nat n) by lia. destruct (i <? N.of_nat n); reflexivity.
Qed.

Lemma hex_value_ge : forall c, 128 <= c -> hex_value c = None.
Proof.
  intros c Hc. unfold hex_value.
  replace ((48 <=? c) && (c <=? 57)) with false by lia.
  replace ((97 <=? c) && (c <=? 102)) with false by lia.
  replace ((65 <=? c) && (c <=? 70)) with false by lia. reflexivity.
Qed.

Lemma hex_value_lt : forall c v, hex_value c = Some v -> v < 16.
Proof.
  intros c v. unfold hex_value.
  destruct ((48 <=? c) && (c <=? 57)) eqn:E1; [intros [= <-]; lia|].
  destruct ((97 <=? c) && (c <=? 102)) eqn:E2; [intros [= <-]; lia|].
  destruct ((65 <=? c) && (c <=? 70)) eqn:E3; [intros [= <-]; lia | discriminate].
Qed.

Lemma is_hexdig_value : forall c, is_hexdig c = match hex_value c with Some _ => true | None => false end.
Proof.
  intros c. unfold is_hexdig, is_digit, hex_value.
  destruct ((48 <=? c) && (c <=? 57)); [reflexivity|].
  destruct ((97 <=? c) && (c <=? 102)); [apply orb_true_r|].
  destruct ((65 <=? c) && (c <=? 70)); reflexivity.
Qed.

(* the upper-case alphabet lacks a-f, the lower-case one A-F *)
Lemma index_of_upper : forall c, index_of c DIGITS_UPPER = if 97 <=? c then None else hex_value c.
Proof.
  apply (table_eq (fun c => index_of c DIGITS_UPPER) (fun c => if 97 <=? c then None else hex_value c) 128).
  - intros c Hc. apply (index_of_ge c _ 128); [reflexivity | exact Hc].
  - intros c Hc. replace (97 <=? c) with true by lia. reflexivity.
  - vm_compute. reflexivity.
Qed.

Lemma index_of_lower : forall c,
  index_of c DIGITS_LOWER = if (65 <=? c) && (c <=? 70) then None else hex_value c.
Proof.
  apply (table_eq (fun c => index_of c DIGITS_LOWER) (fun c => if (65 <=? c) && (c <=? 70) then None else hex_value c) 128).
  - intros c Hc. apply (index_of_ge c _ 128); [reflexivity | exact Hc].
  - intros c Hc. rewrite hex_value_ge by exact Hc. destruct ((65 <=? c) && (c <=? 70)); reflexivity.
  - vm_compute. reflexivity.
Qed.

Definition below (r : N) (o : option N) : option N :=
  match o with Some v => if v <? r then Some v else None | None => None end.

Theorem digit_value_hex : forall radix c, digit_value radix c = below (N.of_nat radix) (hex_value c).
Proof.
  intros radix c. unfold digit_value. rewrite !index_of_firstn, index_of_upper, index_of_lower.
  destruct (97 <=? c) eqn:E1, ((65 <=? c) && (c <=? 70)) eqn:E2; try lia;
    destruct (hex_value c) as [v|]; try reflexivity; cbn [below]; destruct (v <? N.of_nat radix); reflexivity.
Qed.

Lemma digit_value_16 : forall c, digit_value 16 c = hex_value c.
Proof.
  intros c. rewrite digit_value_hex. destruct (hex_value c) as [v|] eqn:E; [|reflexivity].
  apply hex_value_lt in E. cbn [below]. replace (v <? N.of_nat 16) with true by lia. reflexivity.
Qed.

Lemma digit_value_lt : forall radix c d, digit_value radix c = Some d -> d < N.of_nat radix.
Proof.
  intros radix c d. rewrite digit_value_hex. destruct (hex_value c) as [v|]; [|discriminate].
  cbn [below]. destruct (v <? N.of_nat radix) eqn:E; [intros [= <-]; lia | discriminate].
Qed.

Lemma digit_value_hexdig : forall c, is_hexdig c = match digit_value 16 c with Some _ => true | None => false end.
Proof. intros c. rewrite digit_value_16. apply is_hexdig_value. Qed.

(* char::to_digit knows the letters up to z; up to radix 16 the extra ones are out of range anyway *)
Theorem to_digit_hex : forall radix c, radix <= 16 -> to_digit radix c = below radix (hex_value c).
Proof.
  intros radix c Hr. unfold to_digit, hex_value.
  destruct ((48 <=? c) && (c <=? 57)); [reflexivity|].
  destruct ((97 <=? c) && (c <=? 102)) eqn:E1.
  - replace ((97 <=? c) && (c <=? 122)) with true by lia. replace (c - 97 + 10) with (c - 87) by lia. reflexivity.
  - destruct ((97 <=? c) && (c <=? 122)) eqn:E2.
    + replace ((65 <=? c) && (c <=? 70)) with false by lia. replace (c - 97 + 10 <? radix) with false by lia. reflexivity.
    + destruct ((65 <=? c) && (c <=? 70)) eqn:E3.
      * replace ((65 <=? c) && (c <=? 90)) with true by lia. replace (c - 65 + 10) with (c - 55) by lia. reflexivity.
      * destruct ((65 <=? c) && (c <=? 90)) eqn:E4; [|reflexivity].
        replace (c - 65 + 10 <? radix) with false by lia. reflexivity.
Qed.

Lemma to_digit_value : forall radix c, (radix <= 16)%nat -> to_digit (N.of_nat radix) c = digit_value radix c.
Proof. intros radix c Hr. rewrite digit_value_hex. apply to_digit_hex. lia. Qed.

Lemma digit_value_digit : forall d, is_digit d = true -> digit_value 10 d = Some (d - 48).
Proof.
  intros d H. rewrite digit_value_hex. unfold hex_value. unfold is_digit in H. rewrite H.
  cbn [below]. replace (d - 48 <? N.of_nat 10) with true by lia. reflexivity.
Qed.

Definition bounded (maxv : N) (o : option N) : option N :=
  match o with Some v => if v <=? maxv then Some v else None | None => None end.

Lemma positional_acc_ge : forall radix s acc v, positional_acc radix acc s = Some v -> acc <= v.
Proof.
  induction s as [|c r IH]; intros acc v H; cbn [positional_acc] in H.
  - inversion H; lia.
  - destruct (digit_value radix c) as [d|] eqn:Ed; [|discriminate].
    apply digit_value_lt in Ed. apply IH in H. nia.
Qed.

Lemma bounded_above : forall radix maxv s acc, maxv < acc -> bounded maxv (positional_acc radix acc s) = None.
Proof.
  intros radix maxv s acc Hacc. destruct (positional_acc radix acc s) as [v|] eqn:E; [|reflexivity].
  apply positional_acc_ge in E. unfold bounded. replace (v <=? maxv) with false by lia. reflexivity.
Qed.

Lemma acc_digits_spec : forall radix, (radix <= 16)%nat ->
  forall maxv s acc, acc <= maxv ->
  acc_digits (N.of_nat radix) maxv acc s = bounded maxv (positional_acc radix acc s).
Proof.
  intros radix Hr maxv. induction s as [|c r IH]; intros acc Hacc; cbn [acc_digits positional_acc].
  - unfold bounded. replace (acc <=? maxv) with true by lia. reflexivity.
  - rewrite to_digit_value by exact Hr.
    destruct (digit_value radix c) as [d|] eqn:Ed; [|reflexivity].
    destruct (maxv <? acc * N.of_nat radix) eqn:E1; [symmetry; apply bounded_above; lia|].
    destruct (maxv <? acc * N.of_nat radix + d) eqn:E2; [symmetry; apply bounded_above; lia|].
    apply IH. lia.
Qed.

(* from_str_radix on a string that does not start with a plus sign (which Rust would skip) *)
Lemma from_str_radix_spec : forall radix, (radix <= 16)%nat ->
  forall maxv s, hd 0 s <> 43 ->
  unsigned_from_str_radix maxv (N.of_nat radix) s = bounded maxv (positional radix s).
Proof.
  intros radix Hr maxv s Hs. unfold unsigned_from_str_radix, positional.
  destruct s as [|c [|c2 r]]; [reflexivity| |]; cbn [hd] in Hs.
  - destruct ((c =? 43) || (c =? 45)) eqn:E; [|apply acc_digits_spec; [exact Hr | lia]].
    assert (c = 45) by lia. subst c. cbn [positional_acc]. rewrite digit_value_hex. reflexivity.
  - replace (c =? 43) with false by lia. apply acc_digits_spec; [exact Hr | lia].
Qed.

Lemma positional_acc_hexdigs : forall l acc,
  forallb is_hexdig l = match positional_acc 16 acc l with Some _ => true | None => false end.
Proof.
  induction l as [|c l IH]; intros acc; cbn [forallb positional_acc]; [reflexivity|].
  rewrite digit_value_hexdig. destruct (digit_value 16 c); [apply IH | reflexivity].
Qed.

Lemma positional_hexdigs : forall l,
  nonempty l && forallb is_hexdig l = match positional 16 l with Some _ => true | None => false end.
Proof. intros [|c l]; [reflexivity|]. apply (positional_acc_hexdigs (c :: l) 0). Qed.

Lemma positional_acc_lt : forall radix l acc v, positional_acc radix acc l = Some v ->
  v < (acc + 1) * N.of_nat radix ^ lenN l.
Proof.
  induction l as [|c l IH]; intros acc v H; cbn [positional_acc] in H.
  - inversion H. change (lenN []) with 0. rewrite N.pow_0_r. lia.
  - destruct (digit_value radix c) as [d|] eqn:Ed; [|discriminate].
    apply digit_value_lt in Ed. apply IH in H.
    replace (lenN (c :: l)) with (N.succ (lenN l)) by (unfold lenN; cbn [length]; lia).
    rewrite N.pow_succ_r'. nia.
Qed.
