(* C07 - floats: the executable overflow test of Lit/FloatLit.v decides the specification's comparison
   (Lit/Spec.v: magnitude_overflows), and "finite or rejected" holds exactly outside that class. *)
From Coq Require Import ZifyBool.
From Cddl Require Import Base.Bytes Lit.FloatLit Lit.Spec.
Open Scope Z_scope.

Lemma threshold_pos : 0 < F64_OVERFLOW_THRESHOLD.
Proof. apply Z.lt_0_sub, Z.pow_lt_mono_r; lia. Qed.

(* 2^1024 <= 8^e <= 10^e beyond the exponent 400 at which overflows_exec stops computing *)
Lemma threshold_le_pow : forall e, 400 < e -> F64_OVERFLOW_THRESHOLD <= 10 ^ e.
Proof.
  intros e He. apply (Z.le_trans _ (2 ^ 1024)).
  { (* one half of the equivalence, by name: handed the equivalence itself, apply spends seconds evaluating the two
       powers in the unifier *)
    unfold F64_OVERFLOW_THRESHOLD. apply (proj1 (Z.le_sub_nonneg _ _)), Z.pow_nonneg. lia. }
  apply (Z.le_trans _ (2 ^ (3 * e))); [apply Z.pow_le_mono_r; lia|].
  rewrite Z.pow_mul_r by lia. apply Z.pow_le_mono_l. lia.
Qed.

(* proved on the unfolded bodies, which are the same text; converting one constant into the other directly
   (reflexivity, change) computes the 1024-bit difference *)
Lemma threshold_eq : overflow_threshold = F64_OVERFLOW_THRESHOLD.
Proof. unfold overflow_threshold, F64_OVERFLOW_THRESHOLD. reflexivity. Qed.

Theorem overflows_exec_spec : forall m e, overflows_exec m e = true <-> magnitude_overflows m e.
Proof.
  intros m e. unfold overflows_exec, magnitude_overflows. rewrite threshold_eq.
  pose proof threshold_pos as HT. pose proof (threshold_le_pow e) as HTe.
  (* lia and nia evaluate closed powers, so none is left in the context they see *)
  set (T := F64_OVERFLOW_THRESHOLD) in *. clearbody T.
  destruct (N.eqb_spec m 0) as [->|Hm].
  - split; [discriminate|]. change (Z.of_N 0) with 0. destruct (0 <=? e) eqn:E; intros H.
    + lia.
    + assert (0 < 10 ^ (- e)) by (apply Z.pow_pos_nonneg; lia). nia.
  - destruct (400 <? e) eqn:E400.
    + split; [intros _|reflexivity]. replace (0 <=? e) with true by lia.
      specialize (HTe ltac:(lia)).
      assert (0 < 10 ^ e) by (apply Z.pow_pos_nonneg; lia). nia.
    + destruct (e + Z.of_N (N.log2 m + 1) <=? 0) eqn:Esmall; [|destruct (0 <=? e); apply Z.leb_le].
      (* m < 2^b <= 10^b <= 10^(-e) with b = log2 m + 1, so that T * 10^(-e) <= m is impossible *)
      split; [discriminate|]. replace (0 <=? e) with false by lia. intros H.
      assert (Hlog : (m < 2 ^ (N.log2 m + 1))%N) by (rewrite N.add_1_r; apply N.log2_spec; lia).
      apply N2Z.inj_lt in Hlog. rewrite N2Z.inj_pow in Hlog. change (Z.of_N 2) with 2 in Hlog.
      set (b := Z.of_N (N.log2 m + 1)) in *.
      assert (H2 : 2 ^ b <= 10 ^ b) by (apply Z.pow_le_mono_l; lia).
      assert (H3 : 10 ^ b <= 10 ^ (- e)) by (apply Z.pow_le_mono_r; lia).
      nia.
Qed.

(* float_finite_or_rejected: a float literal is stored as a finite value, or - exactly when its magnitude reaches the
   overflow threshold of round-to-nearest-even - rejected; an infinity is never stored *)
Theorem float_finite_or_rejected : forall s f, split_float s = Some f ->
  (magnitude_overflows (df_mantissa f) (df_exp10 f) -> float_model_class s = None)
  /\ (~ magnitude_overflows (df_mantissa f) (df_exp10 f) -> float_model_class s = Some FFinite).
Proof.
  intros s f Hs. unfold float_model_class, parsed_class. rewrite Hs, <- overflows_exec_spec.
  destruct (overflows_exec (df_mantissa f) (df_exp10 f)); split; intros H;
    [reflexivity | elim H; reflexivity | discriminate H | reflexivity].
Qed.

Theorem float_never_infinite : forall s, float_model_class s <> Some FInfinite.
Proof. intros s. unfold float_model_class. destruct (parsed_class s) as [[|]|]; discriminate. Qed.

Example float_example :     (* 1.7976931348623158e308 is stored, 1.7976931348623159e308 and 1e999 are rejected; -0.0 and 4.9e-324 are stored *)
  float_model_class [49;46;55;57;55;54;57;51;49;51;52;56;54;50;51;49;53;56;101;51;48;56]%N = Some FFinite
  /\ float_model_class [49;46;55;57;55;54;57;51;49;51;52;56;54;50;51;49;53;57;101;51;48;56]%N = None
  /\ float_spelling [49; 101; 57; 57; 57]%N = true /\ float_model_class [49; 101; 57; 57; 57]%N = None
  /\ float_model_class [45;48;46;48]%N = Some FFinite
  /\ float_model_class [52;46;57;101;45;51;50;52]%N = Some FFinite
  /\ float_model_class [49;101;57;57;57;57;57;57;57;57;57;57;57;57;57;57;57;57;57;57;57;57;57;57]%N = None.
Proof. vm_compute. repeat split; reflexivity. Qed.
