(* C07 - proofs about the byte-string literal readers (Lit/BytesLit.v) against RFC 4648 as written in Lit/Spec.v *)
From Coq Require Import ZifyBool ZifyNat ZifyN.
From Cddl Require Import Base.Bytes Base.Lists Lit.Grammar Lit.TextLit Lit.BytesLit Lit.Spec Lit.Render
  Lit.Digits Lit.TextProofs.
Open Scope N_scope.

Lemma grammar_ws_is_ws : forall c, is_grammar_ws c = is_ws c.
Proof. intros c. unfold is_grammar_ws, is_ws. lia. Qed.

Lemma clean_strip : forall s ic, clean_st ic s = strip_ws_comments ic s.
Proof.
  induction s as [|c r IH]; intros ic; [reflexivity|].
  cbn [clean_st strip_ws_comments]. rewrite grammar_ws_is_ws.
  destruct ic.
  - destruct (c =? 10); cbn [negb]; apply IH.
  - destruct (c =? 59); [apply IH|]. destruct (is_ws c); [apply IH | f_equal; apply IH].
Qed.

Lemma land_mul_pow2_small : forall hi lo n, lo < 2 ^ n -> N.land (hi * 2 ^ n) lo = 0.
Proof.
  intros hi lo n H. apply N.bits_inj_iff. intros i. rewrite N.land_spec, N.bits_0.
  destruct (N.lt_ge_cases i n) as [Hi|Hi].
  - rewrite N.mul_pow2_bits_low by exact Hi. reflexivity.
  - rewrite <- (N.mod_small lo (2 ^ n)) by exact H. rewrite N.mod_pow2_bits_high by exact Hi. apply andb_false_r.
Qed.
Lemma lor_mul_pow2 : forall hi lo n, lo < 2 ^ n -> N.lor (hi * 2 ^ n) lo = hi * 2 ^ n + lo.
Proof.
  intros hi lo n H. pose proof (land_mul_pow2_small hi lo n H) as H0.
  rewrite <- (N.lxor_lor _ _ H0), <- (N.add_nocarry_lxor _ _ H0). reflexivity.
Qed.

Lemma hex_byte : forall x y, x < 16 -> y < 16 -> N.land (N.lor (N.shiftl x 4) y) 255 = x * 16 + y.
Proof.
  intros x y Hx Hy. rewrite N.shiftl_mul_pow2, (lor_mul_pow2 x y 4) by exact Hy.
  change 255 with (N.ones 8). rewrite N.land_ones. apply N.mod_small.
  change (2 ^ 4) with 16. change (2 ^ 8) with 256. lia.
Qed.

Lemma hex_pairs_base16 : forall s, hex_pairs s = base16 s.
Proof.
  apply list_ind2; [reflexivity | reflexivity |].
  intros a b r IH. cbn [hex_pairs base16]. rewrite <- !digit_value_16, IH.
  destruct (digit_value 16 a) as [x|] eqn:Ea; [|reflexivity].
  destruct (digit_value 16 b) as [y|] eqn:Eb; [|reflexivity].
  destruct (base16 r); [|reflexivity].
  apply digit_value_lt in Ea, Eb. change (N.of_nat 16) with 16 in *.
  rewrite (hex_byte x y Ea Eb). reflexivity.
Qed.

Lemma hex_pairs_nonascii : forall s, all_ascii s = false -> hex_pairs s = None.
Proof.
  induction s as [|a|a b r IH] using list_ind2; intros H.
  - discriminate.
  - reflexivity.
  - cbn [hex_pairs]. unfold all_ascii in *. cbn [forallb] in H.
    destruct (a <? 128) eqn:Ea.
    + destruct (b <? 128) eqn:Eb.
      * cbn [andb] in H. rewrite (IH H). destruct (hex_value a), (hex_value b); reflexivity.
      * rewrite (hex_value_ge b) by lia. destruct (hex_value a); reflexivity.
    + rewrite (hex_value_ge a) by lia. reflexivity.
Qed.

Theorem hex_decode_base16 : forall s, hex_decode s = base16 s.
Proof.
  intros s. unfold hex_decode. destruct (all_ascii s) eqn:E.
  - apply hex_pairs_base16.
  - rewrite <- hex_pairs_base16. symmetry. apply hex_pairs_nonascii. exact E.
Qed.

Lemma quoted_tail_between : forall k tok, quoted_tail (skipn k tok) = true ->
  between k 39 tok = Some (strip_quotes k tok) /\ no_quote (strip_quotes k tok) = true.
Proof.
  intros k tok H. unfold quoted_tail in H. rewrite !andb_true_iff in H. destruct H as [[_ Hlast] Hin].
  rewrite between_last, Hlast. split; [reflexivity | exact Hin].
Qed.

Lemma b16_token : forall tok, bytes_b16_spelling tok = true ->
  opens_with [104; 39] tok = true /\ between 2 39 tok = Some (strip_quotes 2 tok).
Proof.
  intros tok H. unfold bytes_b16_spelling in H. destruct tok as [|h [|q r]]; try discriminate.
  rewrite !andb_true_iff, !N.eqb_eq in H. destruct H as [[-> ->] Hq].
  split; [reflexivity | apply (quoted_tail_between 2), Hq].
Qed.

Lemma b64_token : forall tok, bytes_b64_spelling tok = true ->
  opens_with [98; 54; 52; 39] tok = true /\ between 4 39 tok = Some (strip_quotes 4 tok).
Proof.
  intros tok H. unfold bytes_b64_spelling in H. destruct tok as [|b [|c6 [|c4 [|q r]]]]; try discriminate.
  rewrite !andb_true_iff, !N.eqb_eq in H. destruct H as [[[[-> ->] ->] ->] Hq].
  split; [reflexivity | apply (quoted_tail_between 4), Hq].
Qed.

Lemma butf8_token : forall tok, bytes_utf8_spelling tok = true ->
  opens_with [39] tok = true /\ between 1 39 tok = Some (strip_quotes 1 tok) /\ no_quote (strip_quotes 1 tok) = true.
Proof.
  intros tok H. unfold bytes_utf8_spelling in H. destruct tok as [|q r]; try discriminate.
  rewrite andb_true_iff, N.eqb_eq in H. destruct H as [-> Hq].
  split; [reflexivity | apply (quoted_tail_between 1), Hq].
Qed.

Theorem b16_ok : forall tok, bytes_b16_spelling tok = true -> bytes_b16_model tok = b16_lit tok.
Proof.
  intros tok Hg. destruct (b16_token tok Hg) as [Ho Hb].
  unfold b16_lit, bytes_b16_model, clean_prefixed_byte_string. rewrite Ho, Hb. cbn [obind].
  rewrite clean_strip. apply hex_decode_base16.
Qed.

Example b16_example :     (* h'0a ;c<LF> fF' ; h'12<U+00A0>34' is rejected (kf-c07-bytes-nongrammar-ws, fixed) *)
  bytes_b16_spelling [104;39;48;97;32;59;99;10;32;102;70;39] = true
  /\ b16_lit [104;39;48;97;32;59;99;10;32;102;70;39] = Some [10; 255]
  /\ bytes_b16_spelling [104; 39; 49; 50; 160; 51; 52; 39] = true
  /\ bytes_b16_model [104; 39; 49; 50; 160; 51; 52; 39] = None.
Proof. vm_compute. auto. Qed.

(* the 24-bit number with the base-64 digits v1 v2 v3 v4: the model builds it by shifts and cuts bytes off it,
   the specification computes the bytes from the digits by div and mod *)
Definition X4 (v1 v2 v3 v4 : N) : N := ((v1 * 64 + v2) * 64 + v3) * 64 + v4.

(* one more digit of w bits below the digits read so far *)
Lemma lor_digit : forall w h v n, v < 2 ^ w -> N.lor (N.shiftl h (n + w)) (N.shiftl v n) = N.shiftl (h * 2 ^ w + v) n.
Proof.
  intros w h v n H. rewrite N.add_comm, <- N.shiftl_shiftl, <- N.shiftl_lor, (N.shiftl_mul_pow2 h).
  rewrite (lor_mul_pow2 h v w H). reflexivity.
Qed.

Lemma block_x_4 : forall v1 v2 v3 v4, v2 < 64 -> v3 < 64 -> v4 < 64 -> block_x [v1; v2; v3; v4] = X4 v1 v2 v3 v4.
Proof.
  intros v1 v2 v3 v4 H2 H3 H4. unfold block_x. cbn [block_acc]. rewrite N.lor_0_l.
  change (18 - 6 - 6 - 6) with 0. change (18 - 6 - 6) with (0 + 6). change (18 - 6) with (0 + 6 + 6).
  change 18 with (0 + 6 + 6 + 6). rewrite !(lor_digit 6) by assumption. apply N.shiftl_0_r.
Qed.

(* a short final block is a full one with zero symbols in the missing places *)
Lemma block_acc_pad0 : forall vs shift x, block_acc shift x (vs ++ [0]) = block_acc shift x vs.
Proof.
  induction vs as [|v vs IH]; intros shift x; cbn [app block_acc]; [|apply IH].
  rewrite N.shiftl_0_l. apply N.lor_0_r.
Qed.
Lemma block_x_pad0 : forall vs, block_x (vs ++ [0]) = block_x vs.
Proof. intros vs. apply block_acc_pad0. Qed.

Lemma block_out_div : forall x,
  block_out x 0 = (x / 65536) mod 256 /\ block_out x 1 = (x / 256) mod 256 /\ block_out x 2 = x mod 256.
Proof.
  intros x. unfold block_out. change 255 with (N.ones 8). rewrite !N.land_ones, !N.shiftr_div_pow2.
  change (8 * (2 - 0)) with 16. change (8 * (2 - 1)) with 8. change (8 * (2 - 2)) with 0.
  change (2 ^ 16) with 65536. change (2 ^ 8) with 256. change (2 ^ 0) with 1. rewrite N.div_1_r. auto.
Qed.

Lemma block_bytes : forall v1 v2 v3 v4, v1 < 64 -> v2 < 64 -> v3 < 64 -> v4 < 64 ->
  let x := block_x [v1; v2; v3; v4] in
  block_out x 0 = v1 * 4 + v2 / 16 /\ block_out x 1 = (v2 mod 16) * 16 + v3 / 4 /\ block_out x 2 = (v3 mod 4) * 64 + v4.
Proof.
  intros v1 v2 v3 v4 H1 H2 H3 H4 x. unfold x. rewrite (block_x_4 v1 v2 v3 v4 H2 H3 H4).
  destruct (block_out_div (X4 v1 v2 v3 v4)) as [-> [-> ->]]. unfold X4. repeat split; lia.
Qed.

Section B64.
  Variable val : N -> option N.
  Variable alphabet : list N.
  Hypothesis Hval : forall c, val c = index_of c alphabet.
  Hypothesis Hlt : forall c v, val c = Some v -> v < 64.
  Hypothesis H61 : val 61 = None.

  Lemma decode_base_4 : forall a b c d r, decode_base val (a :: b :: c :: d :: r) =
    match values val [a; b; c; d], decode_base val r with
    | Some vs, Some out => Some (block_out (block_x vs) 0 :: block_out (block_x vs) 1 :: block_out (block_x vs) 2 :: out)
    | _, _ => None
    end.
  Proof. reflexivity. Qed.

  Lemma decode_base_groups : forall s, decode_base val s = base64_groups alphabet s.
  Proof.
    apply list_ind4.
    - reflexivity.
    - reflexivity.
    - intros a b. cbn [decode_base base64_groups values]. rewrite <- !Hval.
      destruct (val a) as [x|] eqn:Ea; [|reflexivity]. destruct (val b) as [y|] eqn:Eb; [|reflexivity].
      apply Hlt in Ea, Eb. cbn [nth]. change 15 with (N.ones 4). rewrite N.land_ones. change (2 ^ 4) with 16.
      destruct (y mod 16 =? 0); [|reflexivity].
      replace (block_x [x; y]) with (block_x [x; y; 0; 0])
        by exact (eq_trans (block_x_pad0 [x; y; 0]) (block_x_pad0 [x; y])).
      destruct (block_bytes x y 0 0) as [-> _]; try lia. reflexivity.
    - intros a b c. cbn [decode_base base64_groups values]. rewrite <- !Hval.
      destruct (val a) as [x|] eqn:Ea; [|reflexivity]. destruct (val b) as [y|] eqn:Eb; [|reflexivity].
      destruct (val c) as [z|] eqn:Ec; [|reflexivity].
      apply Hlt in Ea, Eb, Ec. cbn [nth]. change 3 with (N.ones 2). rewrite N.land_ones. change (2 ^ 2) with 4.
      destruct (z mod 4 =? 0); [|reflexivity].
      replace (block_x [x; y; z]) with (block_x [x; y; z; 0]) by exact (block_x_pad0 [x; y; z]).
      destruct (block_bytes x y z 0) as [-> [-> _]]; try lia. reflexivity.
    - intros a b c d r IH. rewrite decode_base_4, IH. cbn [base64_groups values]. rewrite <- !Hval.
      destruct (val a) as [x|] eqn:Ea; [|reflexivity]. destruct (val b) as [y|] eqn:Eb; [|reflexivity].
      destruct (val c) as [z|] eqn:Ec; [|reflexivity]. destruct (val d) as [w|] eqn:Ed; [|reflexivity].
      apply Hlt in Ea, Eb, Ec, Ed. destruct (base64_groups alphabet r); [|reflexivity].
      destruct (block_bytes x y z w Ea Eb Ec Ed) as [-> [-> ->]]. reflexivity.
  Qed.

  Definition pad_block (a b c d : N) : option (list N) :=
    match values val [a; b; c; d] with
    | Some vs => Some [block_out (block_x vs) 0; block_out (block_x vs) 1; block_out (block_x vs) 2]
    | None =>
      let len := (4 - count_trailing_pad_rev (rev [a; b; c; d]))%nat in
      if ((len =? 0) || (len =? 1))%nat then None else decode_base val (firstn len [a; b; c; d])
    end.
  Lemma decode_pad_unfold : forall a b c d r,
    decode_pad val (a :: b :: c :: d :: r) =
    match pad_block a b c d, decode_pad val r with Some o, Some out => Some (o ++ out) | _, _ => None end.
  Proof. reflexivity. Qed.

  Lemma values_61 : forall a b c, values val [a; b; c; 61] = None.
  Proof. intros. cbn [values]. rewrite H61. destruct (val a), (val b), (val c); reflexivity. Qed.

  Lemma pad_block_full : forall a b c d, d <> 61 ->
    pad_block a b c d = decode_base val [a; b; c; d].
  Proof.
    intros a b c d Hd. unfold pad_block. rewrite decode_base_4.
    destruct (values val [a; b; c; d]) as [vs|] eqn:Ev; [reflexivity|].
    cbn [rev app count_trailing_pad_rev]. replace (d =? 61) with false by lia.
    cbn [Nat.sub Nat.eqb orb firstn]. rewrite decode_base_4, Ev. reflexivity.
  Qed.

  Lemma pad_block_1 : forall a, pad_block a 61 61 61 = None.
  Proof. intros a. unfold pad_block. rewrite values_61. cbn. destruct (a =? 61); reflexivity. Qed.

  Lemma decode_pad_pads : forall k, (1 <= k)%nat -> decode_pad val (repeat 61 k) = None.
  Proof.
    intros k Hk. destruct k as [|[|[|[|k]]]]; [lia | reflexivity | reflexivity | reflexivity |].
    cbn [repeat]. rewrite decode_pad_unfold, pad_block_1. reflexivity.
  Qed.

  (* one block, then padding only *)
  Lemma decode_pad_block : forall a b c d k,
    decode_pad val (a :: b :: c :: d :: repeat 61 k) = if (k =? 0)%nat then pad_block a b c d else None.
  Proof.
    intros a b c d k. rewrite decode_pad_unfold. destruct k as [|k].
    - cbn [repeat decode_pad Nat.eqb]. destruct (pad_block a b c d); [rewrite app_nil_r|]; reflexivity.
    - rewrite decode_pad_pads by lia. destruct (pad_block a b c d); reflexivity.
  Qed.

  (* fewer than four symbols and then padding: one block of exactly four characters with at least two symbols, or an
     error (too short, a lone symbol, or padding left over for a block of its own) *)
  Lemma decode_pad_tail : forall data k, (length data < 4)%nat -> contains 61 data = false -> (1 <= k)%nat ->
    decode_pad val (data ++ repeat 61 k) =
    if ((length data + k) mod 4 =? 0)%nat && (k <=? 2)%nat then decode_base val data else None.
  Proof.
    intros data k Hl Hn Hk.
    replace (((length data + k) mod 4 =? 0)%nat && (k <=? 2)%nat)
      with ((length data + k =? 4) && (2 <=? length data))%nat by lia.
    unfold contains in Hn.
    destruct data as [|a [|b [|c [|d r]]]]; [| | | |cbn in Hl; lia]; cbn [existsb] in Hn; cbn [app length].
    - rewrite decode_pad_pads by assumption. destruct (0 + k =? 4)%nat; reflexivity.
    - destruct k as [|[|[|k]]]; [lia | reflexivity | reflexivity |].
      cbn [repeat]. rewrite decode_pad_block, pad_block_1. destruct k; reflexivity.
    - destruct k as [|[|k]]; [lia | reflexivity |]. cbn [repeat]. rewrite decode_pad_block. destruct k; [|reflexivity].
      unfold pad_block. rewrite values_61. cbn [rev app count_trailing_pad_rev].
      change (61 =? 61) with true. replace (b =? 61) with false by lia. reflexivity.
    - destruct k as [|k]; [lia|]. cbn [repeat]. rewrite decode_pad_block. destruct k; [|reflexivity].
      unfold pad_block. rewrite values_61. cbn [rev app count_trailing_pad_rev].
      change (61 =? 61) with true. replace (c =? 61) with false by lia. reflexivity.
  Qed.

  Lemma decode_pad_core : forall data, contains 61 data = false -> forall k, (1 <= k)%nat ->
    decode_pad val (data ++ repeat 61 k) =
    if ((length data + k) mod 4 =? 0)%nat && (k <=? 2)%nat then decode_base val data else None.
  Proof.
    induction data as [|a|a b|a b c|a b c d r IH] using list_ind4; intros Hn k Hk;
      try (apply decode_pad_tail; [cbn [length]; lia | assumption | assumption]).
    unfold contains in Hn. cbn [existsb] in Hn. rewrite !orb_false_iff in Hn. destruct Hn as (_ & _ & _ & Hd & Hr).
    cbn [app]. rewrite decode_pad_unfold, (pad_block_full a b c d) by lia.
    rewrite (IH Hr k Hk), !decode_base_4.
    replace ((length (a :: b :: c :: d :: r) + k) mod 4 =? 0)%nat with ((length r + k) mod 4 =? 0)%nat
      by (cbn [length]; lia).
    destruct (_ && _), (values val [a; b; c; d]), (decode_base val r); reflexivity.
  Qed.

  (* the decoder base64_decode picks by the presence of padding *)
  Lemma decode_shape : forall data k, contains 61 data = false ->
    (if negb (k =? 0)%nat then decode_pad val (data ++ repeat 61 k) else decode_base val (data ++ repeat 61 k)) =
    if (k =? 0)%nat || ((length data + k) mod 4 =? 0)%nat && (k <=? 2)%nat then base64_groups alphabet data else None.
  Proof.
    intros data k Hn. rewrite <- decode_base_groups. destruct k as [|k]; cbn [Nat.eqb negb orb].
    - cbn [repeat]. rewrite app_nil_r. reflexivity.
    - apply decode_pad_core; [exact Hn | lia].
  Qed.
End B64.

Definition alphabet_of (url : bool) : list N := if url then BASE64URL else BASE64.

Lemma b64_value_ge : forall url c, 128 <= c -> b64_value url c = None.
Proof.
  intros url c Hc. unfold b64_value.
  replace ((65 <=? c) && (c <=? 90)) with false by lia.
  replace ((97 <=? c) && (c <=? 122)) with false by lia.
  replace ((48 <=? c) && (c <=? 57)) with false by lia.
  replace (c =? 45) with false by lia. replace (c =? 95) with false by lia.
  replace (c =? 43) with false by lia. replace (c =? 47) with false by lia. destruct url; reflexivity.
Qed.

Lemma b64_value_index : forall url c, b64_value url c = index_of c (alphabet_of url).
Proof.
  intros url. apply (table_eq (b64_value url) (fun c => index_of c (alphabet_of url)) 128).
  - apply b64_value_ge.
  - intros c Hc. apply (index_of_ge c _ 128); [destruct url; reflexivity | exact Hc].
  - destruct url; vm_compute; reflexivity.
Qed.

Lemma b64_value_lt : forall url c v, b64_value url c = Some v -> v < 64.
Proof.
  intros url c v H. rewrite b64_value_index in H. apply index_of_lt in H.
  replace (lenN (alphabet_of url)) with 64 in H by (destruct url; reflexivity). exact H.
Qed.

Lemma b64_value_61 : forall url, b64_value url 61 = None.
Proof. intros [|]; reflexivity. Qed.

Definition not_in (alphabet : list N) (c : N) : bool := match index_of c alphabet with None => true | Some _ => false end.

Lemma groups_bad : forall alphabet s, existsb (not_in alphabet) s = true -> base64_groups alphabet s = None.
Proof.
  intros alphabet s. induction s as [|a|a b|a b c|a b c d r IH] using list_ind4; intros H.
  - discriminate.
  - reflexivity.
  - cbn [existsb base64_groups] in *. unfold not_in in H.
    destruct (index_of a alphabet); [|reflexivity]. destruct (index_of b alphabet); [|reflexivity]. discriminate.
  - cbn [existsb base64_groups] in *. unfold not_in in H.
    destruct (index_of a alphabet); [|reflexivity]. destruct (index_of b alphabet); [|reflexivity].
    destruct (index_of c alphabet); [|reflexivity]. discriminate.
  - cbn [existsb base64_groups] in *. unfold not_in in H at 1 2 3 4.
    destruct (index_of a alphabet); [|reflexivity]. destruct (index_of b alphabet); [|reflexivity].
    destruct (index_of c alphabet); [|reflexivity]. destruct (index_of d alphabet); [|reflexivity].
    cbn [orb] in H. rewrite (IH H). reflexivity.
Qed.

Lemma groups_ext : forall A B s, (forall c, In c s -> index_of c A = index_of c B) ->
  base64_groups A s = base64_groups B s.
Proof.
  intros A B s. induction s as [|a|a b|a b c|a b c d r IH] using list_ind4; intros H; try reflexivity.
  - cbn [base64_groups]. rewrite (H a), (H b) by (cbn [In]; auto). reflexivity.
  - cbn [base64_groups]. rewrite (H a), (H b), (H c) by (cbn [In]; auto). reflexivity.
  - cbn [base64_groups]. rewrite (H a), (H b), (H c), (H d) by (cbn [In]; auto 6).
    rewrite IH by (intros x Hx; apply H; cbn [In]; auto 6). reflexivity.
Qed.

(* the two alphabets differ in their last two symbols only *)
Lemma index_agree : forall c, c <> 43 -> c <> 47 -> c <> 45 -> c <> 95 -> index_of c BASE64 = index_of c BASE64URL.
Proof.
  intros c H1 H2 H3 H4. unfold BASE64, BASE64URL.
  induction B64_COMMON as [|a l IH]; cbn [app index_of].
  - replace (c =? 43) with false by lia. replace (c =? 47) with false by lia.
    replace (c =? 45) with false by lia. replace (c =? 95) with false by lia. reflexivity.
  - rewrite IH. reflexivity.
Qed.

Lemma contains_false_In : forall k s, contains k s = false -> forall c, In c s -> c <> k.
Proof.
  intros k s H c Hc ->. apply not_true_iff_false in H. apply H. apply existsb_exists.
  exists k. split; [exact Hc | apply N.eqb_refl].
Qed.

(* every literal is data that does not end in '=' followed by k '=' *)
Lemma strip_pad_rev_spec : forall s n, exists data k,
  strip_pad_rev (rev s) n = (rev data, (n + k)%nat) /\ s = data ++ repeat 61 k
  /\ (data = [] \/ exists pre x, data = pre ++ [x] /\ x <> 61).
Proof.
  induction s as [|c s IH] using rev_ind; intros n.
  - exists [], O. rewrite Nat.add_0_r. auto.
  - rewrite rev_unit. cbn [strip_pad_rev]. destruct (c =? 61) eqn:Ec.
    + destruct (IH (S n)) as (data & k & E1 & E2 & E3). exists data, (S k). rewrite E1, E2 at 1.
      apply N.eqb_eq in Ec. subst c. rewrite <- app_assoc, <- repeat_cons. repeat split; [f_equal; lia | exact E3].
    + exists (s ++ [c]), O. rewrite rev_unit, Nat.add_0_r, app_nil_r. repeat split. right. exists s, c. split; [reflexivity | lia].
Qed.

Lemma existsb_repeat : forall (p : N -> bool) c k, existsb p (repeat c k) = negb (k =? 0)%nat && p c.
Proof. induction k as [|k IH]; [reflexivity|]. cbn [repeat existsb]. rewrite IH. destruct k, (p c); reflexivity. Qed.

Lemma pad_at_end : forall data k, contains 61 data = false -> pad_not_at_end (data ++ repeat 61 k) = false.
Proof.
  unfold pad_not_at_end, contains. induction data as [|a d IH]; intros k Hn.
  - destruct k; [reflexivity|]. cbn [app repeat from_first_pad]. change (61 =? 61) with true. cbv iota.
    rewrite (existsb_repeat _ 61 (S k)). reflexivity.
  - cbn [existsb] in Hn. apply orb_false_elim in Hn. destruct Hn as [Ha Hd].
    cbn [app from_first_pad]. rewrite N.eqb_sym, Ha. apply IH, Hd.
Qed.

Lemma pad_not_at_end_inner : forall pre x l, contains 61 (pre ++ [x]) = true -> x <> 61 ->
  pad_not_at_end ((pre ++ [x]) ++ l) = true.
Proof.
  unfold pad_not_at_end, contains. induction pre as [|a p IH]; intros x l H Hx; cbn [app existsb] in H; [lia|].
  cbn [app from_first_pad]. rewrite N.eqb_sym in H. destruct (a =? 61).
  - cbn [existsb]. rewrite !existsb_app. cbn [existsb]. replace (x =? 61) with false by lia.
    cbn [negb orb]. rewrite !orb_true_r. reflexivity.
  - apply IH; assumption.
Qed.

Lemma contains_app_pads : forall c data k, c <> 61 -> contains c (data ++ repeat 61 k) = contains c data.
Proof.
  intros c data k Hc. unfold contains. rewrite existsb_app, existsb_repeat.
  replace (c =? 61) with false by lia. rewrite andb_false_r. apply orb_false_r.
Qed.

Lemma contains_61 : forall data k, contains 61 data = false -> contains 61 (data ++ repeat 61 k) = negb (k =? 0)%nat.
Proof.
  intros data k Hn. unfold contains in *. rewrite existsb_app, existsb_repeat, Hn. apply andb_true_r.
Qed.

Lemma all_ascii_app_pads : forall data k, all_ascii (data ++ repeat 61 k) = all_ascii data.
Proof.
  intros data k. unfold all_ascii. rewrite forallb_app.
  replace (forallb (fun c => c <? 128) (repeat 61 k)) with true; [apply andb_true_r|].
  induction k as [|k IH]; [reflexivity | exact IH].
Qed.

Lemma existsb_weaken : forall (p q : N -> bool) s, (forall c, p c = true -> q c = true) ->
  existsb p s = true -> existsb q s = true.
Proof.
  intros p q s Hpq H. apply existsb_exists in H. destruct H as [c [Hc Hp]].
  apply existsb_exists. exists c. auto.
Qed.

Lemma contains_not_in : forall c alphabet s, contains c s = true -> index_of c alphabet = None ->
  base64_groups alphabet s = None.
Proof.
  intros c alphabet s H Hi. apply groups_bad. revert H. apply existsb_weaken.
  intros x Hx. apply N.eqb_eq in Hx. subst x. unfold not_in. rewrite Hi. reflexivity.
Qed.

Lemma nonascii_groups : forall alphabet s, forallb (fun a => a <? 128) alphabet = true -> all_ascii s = false ->
  base64_groups alphabet s = None.
Proof.
  intros alphabet s HA H. apply groups_bad. unfold all_ascii in H.
  induction s as [|a r IH]; [discriminate|]. cbn [forallb existsb] in *.
  destruct (a <? 128) eqn:Ea.
  - cbn [andb] in H. rewrite (IH H). apply orb_true_r.
  - unfold not_in. rewrite (index_of_ge a _ 128); [reflexivity | exact HA | lia].
Qed.

Definition uses_classic (s : list N) : bool := contains 43 s || contains 47 s.
Definition uses_url (s : list N) : bool := contains 45 s || contains 95 s.

(* trying both alphabets is what the crate's detection does: '+' or '/' has no value under base64url, '-' or '_' none
   under base64, and a string with none of the four reads the same under both *)
Lemma either_detect : forall d,
  match base64_groups BASE64 d with Some bs => Some bs | None => base64_groups BASE64URL d end =
  if uses_classic d && uses_url d then None else base64_groups (alphabet_of (negb (uses_classic d))) d.
Proof.
  intros d.
  assert (Hc : uses_classic d = true -> base64_groups BASE64URL d = None).
  { intros H. apply orb_prop in H. destruct H as [H|H]; [apply (contains_not_in 43) | apply (contains_not_in 47)]; auto. }
  assert (Hu : uses_url d = true -> base64_groups BASE64 d = None).
  { intros H. apply orb_prop in H. destruct H as [H|H]; [apply (contains_not_in 45) | apply (contains_not_in 95)]; auto. }
  destruct (uses_classic d) eqn:Ec, (uses_url d) eqn:Eu; cbn [andb negb alphabet_of].
  - rewrite Hc, Hu; reflexivity.
  - rewrite Hc by reflexivity. destruct (base64_groups BASE64 d); reflexivity.
  - rewrite Hu; reflexivity.
  - apply orb_false_elim in Ec, Eu. destruct Ec as [E43 E47], Eu as [E45 E95].
    rewrite (groups_ext BASE64 BASE64URL d); [destruct (base64_groups BASE64URL d); reflexivity|].
    intros c Hin. apply index_agree; eapply contains_false_In; eassumption.
Qed.

Lemma inner_pad_with_none : forall alphabet l, index_of 61 alphabet = None -> contains 61 l = true ->
  base64_groups alphabet l = None.
Proof. intros alphabet l H61 Hn. exact (contains_not_in 61 alphabet l Hn H61). Qed.

(* alphabet detection + data_encoding = RFC 4648 under either alphabet, for literals without inner padding *)
Lemma base64_decode_shape : forall data k, contains 61 data = false ->
  base64_decode (data ++ repeat 61 k) =
  if (k =? 0)%nat || ((length data + k) mod 4 =? 0)%nat && (k <=? 2)%nat
  then match base64_groups BASE64 data with Some bs => Some bs | None => base64_groups BASE64URL data end
  else None.
Proof.
  intros data k Hn. unfold base64_decode.
  rewrite (pad_at_end data k Hn), all_ascii_app_pads, !contains_app_pads by discriminate.
  rewrite (contains_61 data k Hn). fold (uses_classic data) (uses_url data).
  set (cond := (k =? 0)%nat || ((length data + k) mod 4 =? 0)%nat && (k <=? 2)%nat).
  destruct (all_ascii data) eqn:Easc; cbn [negb].
  2:{ rewrite !nonascii_groups by (reflexivity || exact Easc). destruct cond; reflexivity. }
  rewrite either_detect. destruct (uses_classic data && uses_url data); [destruct cond; reflexivity|].
  destruct (uses_classic data); cbn [negb];
    apply (decode_shape _ _ (b64_value_index _) (b64_value_lt _) (b64_value_61 _) data k Hn).
Qed.

(* the decoder of the crate = RFC 4648 under either alphabet, on EVERY input *)
Theorem base64_decode_either : forall s, base64_decode s = base64_either s.
Proof.
  intros s. destruct (strip_pad_rev_spec s 0) as (data & k & Hstrip & -> & Hd). cbn [Nat.add] in Hstrip.
  unfold base64_either, base64_with. rewrite Hstrip, rev_involutive. destruct (contains 61 data) eqn:Hn.
  - (* padding before the end: rejected by the check, and '=' is in neither alphabet *)
    rewrite !inner_pad_with_none by (reflexivity || exact Hn).
    assert (Hp : pad_not_at_end (data ++ repeat 61 k) = true).
    { destruct Hd as [-> | (pre & x & -> & Hx)]; [discriminate Hn|].
      exact (pad_not_at_end_inner pre x _ Hn Hx). }
    unfold base64_decode. rewrite Hp.
    destruct (negb (all_ascii _)); [|destruct (_ && _)]; destruct (_ || _); reflexivity.
  - rewrite (base64_decode_shape data k Hn). destruct (_ || _); reflexivity.
Qed.

Theorem b64_ok : forall tok, bytes_b64_spelling tok = true -> bytes_b64_model tok = b64_lit tok.
Proof.
  intros tok Hg. destruct (b64_token tok Hg) as [Ho Hb].
  unfold b64_lit, bytes_b64_model, clean_prefixed_byte_string. rewrite Ho, Hb. cbn [obind].
  rewrite clean_strip. apply base64_decode_either.
Qed.

Example b64_example :    (* b64'-_8 ;c<LF> =' under base64url, b64'+/8=' under base64: the same two bytes *)
  b64_lit [98;54;52;39; 45;95;56;32;59;99;10;32;61; 39] = Some [251; 255]
  /\ b64_lit [98;54;52;39; 43;47;56;61; 39] = Some [251; 255]
  /\ b64_lit [98;54;52;39; 43;95;56;61; 39] = None          (* mixed alphabets *)
  /\ b64_lit [98;54;52;39; 89;82;61;61; 39] = None          (* YR== : non-zero trailing bits *)
  /\ bytes_b64_model [98; 54; 52; 39; 89; 81; 61; 61; 89; 81; 61; 61; 39] = None   (* YQ==YQ== : kf-c07-b64-inner-padding, fixed *)
  /\ bytes_b64_model [98; 54; 52; 39; 89; 81; 160; 61; 61; 39] = None.             (* YQ<U+00A0>== *)
Proof. vm_compute. repeat split; reflexivity. Qed.

Lemma denote_no_backslash : forall q s, existsb (N.eqb 92) s = false -> forallb (fun c => negb (c =? q)) s = true ->
  denote_st q DNorm s = Some s.
Proof.
  induction s as [|c r IH]; intros Hb Hq; [reflexivity|].
  cbn [existsb forallb] in *. apply orb_false_elim in Hb. destruct Hb as [Hc Hb]. apply andb_prop in Hq. destruct Hq as [Hcq Hq].
  cbn [denote_st]. destruct (c =? q); [discriminate|]. rewrite (N.eqb_sym c 92), Hc. cbn [negb].
  rewrite (IH Hb Hq). reflexivity.
Qed.

(* provable part: without a backslash the stored text is the RFC value *)
Theorem bytes_utf8_ok_partial : forall tok, bytes_utf8_spelling tok = true ->
  has_backslash (bytes_utf8_chars tok) = false -> Some (bytes_utf8_chars tok) = bytes_text_lit tok.
Proof.
  intros tok Hg Hb. destruct (butf8_token tok Hg) as (Ho & Hbt & Hq).
  unfold bytes_text_lit. rewrite Ho, Hbt. symmetry. apply denote_no_backslash; [exact Hb | exact Hq].
Qed.

(* the full statement is FALSE of the faithful model: the escapes of RFC 9682 2.2 are not processed *)
Theorem bytes_utf8_ok_refuted : exists tok,    (* 'a\\b' is stored as the 4 characters a \ \ b; the RFC value is a \ b *)
  bytes_utf8_spelling tok = true /\ bytes_text_lit tok = Some [97; 92; 98] /\ bytes_utf8_chars tok = [97; 92; 92; 98].
Proof. exists [39; 97; 92; 92; 98; 39]. vm_compute. auto. Qed.

Lemma sym_index : forall url v, v < 64 -> index_of (sym (alphabet_of url) v) (alphabet_of url) = Some v.
Proof.
  intros url v H. apply opt_eqb_eq. revert v H.
  apply (forallb_below (fun v => opt_eqb (index_of (sym (alphabet_of url) v) (alphabet_of url)) (Some v)) 64).
  destruct url; vm_compute; reflexivity.
Qed.

(* The specification is not over-strict: its group decoder inverts the encoding under both alphabets.  Every symbol
   of an encoding is the low digit of one byte next to the high digit of the following byte: decoding takes the
   digits out again (div_pack, mod_pack) and joins the two digits of each byte. *)
Theorem spec_b64_roundtrip : forall url bs, wf_bytes bs ->
  base64_groups (alphabet_of url) (base64_encode (alphabet_of url) bs) = Some bs.
Proof.
  intros url bs. set (A := alphabet_of url). unfold wf_bytes.
  induction bs as [|b1|b1 b2|b1 b2 b3 r IH] using list_ind3.
  - reflexivity.
  - rewrite Forall_cons_iff. intros [Hb1 _].
    cbn [base64_encode base64_groups]. unfold A. rewrite !sym_index by lia.
    rewrite N.mod_mul, N.div_mul, div_mod_join by discriminate. reflexivity.
  - rewrite !Forall_cons_iff. intros (Hb1 & Hb2 & _).
    cbn [base64_encode base64_groups]. unfold A. rewrite !sym_index by lia.
    rewrite N.mod_mul, N.div_mul, div_pack, mod_pack, !div_mod_join by (discriminate || lia). reflexivity.
  - rewrite !Forall_cons_iff. intros (Hb1 & Hb2 & Hb3 & Hw).
    cbn [base64_encode base64_groups]. unfold A in *. rewrite !sym_index by lia. rewrite (IH Hw).
    rewrite !div_pack, !mod_pack, !div_mod_join by lia. reflexivity.
Qed.

(* an encoding decodes, so it has no character from outside its alphabet *)
Lemma encode_lacks : forall c bs, wf_bytes bs -> index_of c BASE64URL = None ->
  contains c (base64_encode BASE64URL bs) = false.
Proof.
  intros c bs Hw Hi. destruct (contains c (base64_encode BASE64URL bs)) eqn:E; [|reflexivity].
  pose proof (contains_not_in c _ _ E Hi) as H. pose proof (spec_b64_roundtrip true bs Hw) as G.
  cbn [alphabet_of] in G. congruence.
Qed.

(* the crate's decoder returns the bytes of every unpadded base64url encoding (the form the printer emits) *)
Theorem b64_roundtrip : forall bs, wf_bytes bs -> base64_decode (base64_encode BASE64URL bs) = Some bs.
Proof.
  intros bs Hw. set (s := base64_encode BASE64URL bs).
  pose proof (encode_lacks 61 bs Hw eq_refl : contains 61 s = false) as Hn.
  pose proof (base64_decode_shape s 0 Hn) as E. cbn [repeat] in E. rewrite app_nil_r in E.
  rewrite E, either_detect. unfold uses_classic, s.
  rewrite (encode_lacks 43 bs Hw eq_refl), (encode_lacks 47 bs Hw eq_refl). apply (spec_b64_roundtrip true bs Hw).
Qed.

Theorem spec_b64_decodes_encodings : forall bs, wf_bytes bs ->
  base64_groups BASE64 (base64_encode BASE64 bs) = Some bs
  /\ base64_groups BASE64URL (base64_encode BASE64URL bs) = Some bs.
Proof. intros bs Hw. split; [apply (spec_b64_roundtrip false bs Hw) | apply (spec_b64_roundtrip true bs Hw)]. Qed.
