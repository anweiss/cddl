(* C07 - proofs about the integer, occurrence and tag readers (Lit/IntLit.v) against Lit/Spec.v *)
From Coq Require Import ZifyBool ZifyNat ZifyN.
From Cddl Require Import Base.Bytes Base.Lists Lit.IntLit Lit.Grammar Lit.Spec Lit.Render Lit.Digits.
Open Scope N_scope.

(* every character of a uint spelling lies in '0'..'z': no sign, no star, no white space *)
Definition plain (c : N) : bool := (48 <=? c) && (c <=? 122).

Lemma hexdig_plain : forall c, is_hexdig c = true -> plain c = true.
Proof. intros c. unfold is_hexdig, is_digit, plain. lia. Qed.
Lemma bindig_plain : forall c, is_bindig c = true -> plain c = true.
Proof. intros c. unfold is_bindig, plain. lia. Qed.
Lemma digit_plain : forall c, is_digit c = true -> plain c = true.
Proof. intros c. unfold is_digit, plain. lia. Qed.

(* b is what the grammar asks besides: a body that is not empty, a first digit that is not zero *)
Lemma digits_plain : forall (b : bool) (d : N -> bool) l, (forall c, d c = true -> plain c = true) ->
  b && forallb d l = true -> forallb plain l = true.
Proof. intros b d l Hd H. apply andb_prop in H. exact (forallb_impl _ _ Hd l (proj2 H)). Qed.

Lemma uint_spelling_plain : forall s, uint_spelling s = true -> forallb plain s = true.
Proof.
  intros s Hs. unfold uint_spelling in Hs. destruct s as [|z [|p r]]; [discriminate| |]; cbn [forallb].
  - rewrite (digit_plain z Hs). reflexivity.
  - destruct (z =? 48) eqn:Ez.
    + destruct ((p =? 120) || (p =? 88)) eqn:Ex.
      * rewrite (digits_plain _ _ r hexdig_plain Hs). unfold plain. lia.
      * destruct ((p =? 98) || (p =? 66)) eqn:Eb; [|discriminate].
        rewrite (digits_plain _ _ r bindig_plain Hs). unfold plain. lia.
    + pose proof (digits_plain _ _ _ digit_plain Hs) as Hd. cbn [forallb] in Hd. rewrite Hd.
      unfold is_nonzero_digit in Hs. unfold plain. lia.
Qed.

Lemma uint_lit_bounded : forall s, uint_lit s = bounded u64_max (uint_value s).
Proof.
  intros s. unfold uint_lit, bounded, obind. destruct (uint_value s) as [v|]; [|reflexivity].
  replace (v <? 2 ^ 64) with (v <=? u64_max) by (unfold u64_max; lia). reflexivity.
Qed.

Lemma u64_plain : forall radix s, forallb plain s = true -> (radix <= 16)%nat ->
  u64_from_str_radix (N.of_nat radix) s = bounded u64_max (positional radix s).
Proof.
  intros radix s Hs Hr. apply from_str_radix_spec; [exact Hr|].
  destruct s as [|c r]; [discriminate|]. cbn [hd forallb] in *. unfold plain in Hs. lia.
Qed.

(* the reader needs less than a spelling: characters in '0'..'z' are enough, since all that from_str_radix does
   beyond the digit loop is skip a leading plus sign *)
Theorem uint_lit_plain : forall s, forallb plain s = true -> parse_u64_lit s = uint_lit s.
Proof.
  intros s Hs. rewrite uint_lit_bounded. unfold parse_u64_lit, uint_value.
  destruct s as [|z [|p r]]; try (apply (u64_plain 10 _ Hs); lia).
  assert (Hr : forallb plain r = true) by (cbn [forallb] in Hs; lia).
  destruct ((z =? 48) && ((p =? 120) || (p =? 88))); [apply (u64_plain 16 r Hr); lia|].
  destruct ((z =? 48) && ((p =? 98) || (p =? 66))); [apply (u64_plain 2 r Hr) | apply (u64_plain 10 _ Hs)]; lia.
Qed.

Theorem uint_lit_ok : forall s, uint_spelling s = true -> parse_u64_lit s = uint_lit s.
Proof. intros s Hs. apply uint_lit_plain, uint_spelling_plain, Hs. Qed.

(* the usize reader (type positions, occurrence bounds) on the 64-bit target *)
Theorem uint_usize_plain : forall s, forallb plain s = true -> parse_uint_lit s = uint_lit s.
Proof.
  intros s Hs. change (parse_uint_lit s) with (bounded u64_max (parse_u64_lit s)).
  rewrite (uint_lit_plain s Hs), uint_lit_bounded. destruct (uint_value s) as [v|]; [|reflexivity].
  cbn [bounded]. destruct (v <=? u64_max) eqn:E; [cbn [bounded]; rewrite E|]; reflexivity.
Qed.

Theorem uint_usize_ok : forall s, uint_spelling s = true -> parse_uint_lit s = uint_lit s.
Proof. intros s Hs. apply uint_usize_plain, uint_spelling_plain, Hs. Qed.

Theorem int_lit_ok : forall s, int_spelling s = true -> parse_int_lit s = int_lit s.
Proof.
  intros s Hs. unfold int_spelling in Hs. destruct s as [|c r]; [discriminate|].
  apply andb_prop in Hs. destruct Hs as [Hc Hr].
  unfold parse_int_lit, int_lit, int_value. rewrite Hc, (uint_lit_ok r Hr), uint_lit_bounded.
  destruct (uint_value r) as [m|]; [|reflexivity].
  unfold bounded, obind, omap, isize_try_from. change (- 2 ^ 63)%Z with i64_min.
  destruct (m <=? u64_max) eqn:E1.
  - destruct (i64_min <=? - Z.of_N m)%Z eqn:E2; [|reflexivity].
    replace (- Z.of_N m <=? i64_max)%Z with true by (unfold i64_max; lia). reflexivity.
  - replace (i64_min <=? - Z.of_N m)%Z with false by (unfold u64_max, i64_min in *; lia). reflexivity.
Qed.

Lemma plain_not_ws : forall c, plain c = true -> is_rust_ws c = false.
Proof. intros c H. unfold plain in H. unfold is_rust_ws. lia. Qed.
Lemma plain_not_star : forall c, plain c = true -> (c =? 42) = false.
Proof. intros c H. unfold plain in H. lia. Qed.

Lemma trim_start_plain : forall s, forallb plain s = true -> trim_start s = s.
Proof.
  intros [|c r] H; [reflexivity|]. cbn [forallb] in H. apply andb_prop in H. destruct H as [Hc _].
  cbn [trim_start]. rewrite (plain_not_ws c Hc). reflexivity.
Qed.

Lemma trim_plain : forall s, forallb plain s = true -> trim s = s.
Proof.
  intros s H. unfold trim. rewrite (trim_start_plain s H).
  rewrite trim_start_plain by (rewrite forallb_rev; exact H). apply rev_involutive.
Qed.

Lemma drop_stars_plain : forall s, forallb plain s = true -> drop_stars s = s.
Proof.
  intros [|c r] H; [reflexivity|]. cbn [forallb] in H. apply andb_prop in H. destruct H as [Hc _].
  cbn [drop_stars]. rewrite (plain_not_star c Hc). reflexivity.
Qed.

Lemma trim_end_stars_star : forall a, forallb plain a = true -> trim_end_stars (a ++ [42]) = a.
Proof.
  intros a Ha. unfold trim_end_stars. rewrite rev_app_distr. cbn [rev app drop_stars].
  change (42 =? 42) with true. cbv iota.
  rewrite drop_stars_plain by (rewrite forallb_rev; exact Ha). apply rev_involutive.
Qed.

Lemma split_star_acc_app : forall a cur l, forallb plain a = true ->
  split_star_acc cur (a ++ l) = split_star_acc (rev a ++ cur) l.
Proof.
  induction a as [|c a IH]; intros cur l H; [reflexivity|].
  cbn [forallb] in H. apply andb_prop in H. destruct H as [Hc Ha].
  cbn [app split_star_acc rev]. rewrite (plain_not_star c Hc), (IH _ _ Ha), <- app_assoc. reflexivity.
Qed.

Lemma split_star_one : forall a b, forallb plain a = true -> forallb plain b = true ->
  split_star (a ++ 42 :: b) = [a; b].
Proof.
  intros a b Ha Hb. unfold split_star. rewrite (split_star_acc_app a [] _ Ha). cbn [split_star_acc].
  change (42 =? 42) with true. cbv iota.
  pose proof (split_star_acc_app b [] [] Hb) as E. rewrite app_nil_r in E. rewrite E.
  cbn [split_star_acc]. rewrite !app_nil_r, !rev_involutive. reflexivity.
Qed.

Lemma contains_star_star_app : forall a l, forallb plain a = true ->
  contains_star_star (a ++ l) = contains_star_star l.
Proof.
  induction a as [|c a IH]; intros l H; [reflexivity|].
  cbn [forallb] in H. apply andb_prop in H. destruct H as [Hc Ha].
  rewrite <- (IH l Ha). cbn [app]. destruct (a ++ l) as [|d t]; [reflexivity|].
  change (contains_star_star (c :: d :: t)) with (((c =? 42) && (d =? 42)) || contains_star_star (d :: t)).
  rewrite (plain_not_star c Hc). reflexivity.
Qed.

Lemma contains_star_star_one : forall a b, forallb plain a = true -> forallb plain b = true ->
  contains_star_star (a ++ 42 :: b) = false.
Proof.
  intros a b Ha Hb. rewrite (contains_star_star_app a _ Ha). destruct b as [|d b]; [reflexivity|].
  change (contains_star_star (42 :: d :: b)) with (((42 =? 42) && (d =? 42)) || contains_star_star (d :: b)).
  pose proof (contains_star_star_app _ [] Hb) as E. rewrite app_nil_r in E. rewrite E.
  cbn [forallb] in Hb. apply andb_prop in Hb. destruct Hb as [Hd _].
  rewrite (plain_not_star d Hd). reflexivity.
Qed.

Lemma ends_with_star_app : forall a b, forallb plain b = true -> ends_with_star (a ++ 42 :: b) = is_nil b.
Proof.
  intros a b Hb. unfold ends_with_star. rewrite rev_app_distr. cbn [rev]. rewrite <- app_assoc.
  rewrite <- forallb_rev in Hb. destruct b as [|y b]; [reflexivity|]. cbn [rev] in *.
  destruct (rev b) as [|x t]; cbn [app forallb] in *; apply andb_prop in Hb; destruct Hb as [Hx _];
    apply (plain_not_star _ Hx).
Qed.

Lemma split_first_star_spec : forall s pre a b, split_first_star pre s = Some (a, b) ->
  rev pre ++ s = a ++ 42 :: b.
Proof.
  induction s as [|c r IH]; intros pre a b H; cbn [split_first_star] in H; [discriminate|].
  destruct (c =? 42) eqn:E.
  - apply N.eqb_eq in E. inversion H; subst. reflexivity.
  - apply IH in H. cbn [rev] in H. rewrite <- app_assoc in H. exact H.
Qed.

(* an optional bound as the specification reads it *)
Definition obound (l : list N) : option (option N) :=
  match l with [] => Some None | _ => omap Some (uint_lit l) end.

Lemma occur_bounds_split : forall a b, forallb plain a = true -> forallb plain b = true ->
  occur_bounds (a ++ 42 :: b) = obind (obound a) (fun lo => obind (obound b) (fun hi => Some (OExact lo hi))).
Proof.
  intros a b Pa Pb. unfold occur_bounds. cbv zeta.
  rewrite (ends_with_star_app a b Pb), (contains_star_star_one a b Pa Pb), (split_star_one a b Pa Pb).
  cbn [nth length negb andb]. rewrite (trim_plain a Pa), (trim_plain b Pb).
  destruct b as [|b0 b']; cbn [is_nil andb].
  - rewrite (trim_end_stars_star a Pa), (trim_plain a Pa), (uint_usize_plain a Pa).
    destruct a as [|a0 a']; [reflexivity|]. cbn [is_nil negb obound]. destruct (uint_lit (a0 :: a')); reflexivity.
  - rewrite (uint_usize_plain a Pa), (uint_usize_plain _ Pb).
    destruct a as [|a0 a']; cbn [is_nil obound]; [|destruct (uint_lit (a0 :: a')); [|reflexivity]];
      destruct (uint_lit (b0 :: b')); reflexivity.
Qed.

Lemma empty_or_uint_plain : forall a, is_nil a || uint_spelling a = true -> forallb plain a = true.
Proof. intros [|x a] H; [reflexivity | exact (uint_spelling_plain _ H)]. Qed.

Theorem occur_ok : forall s, occur_spelling s = true ->
  omap occur_sem (occur_model s) = occur_value s.
Proof.
  intros s Hs. unfold occur_spelling in Hs. unfold occur_model, occur_value.
  destruct (occur_kind s) as [k|] eqn:Ek; [|discriminate]. clear Hs.
  unfold occur_kind in Ek.
  destruct s as [|c [|c2 r]].
  - discriminate.
  - destruct (c =? 63) eqn:E1; [inversion Ek; subst; reflexivity|].
    destruct (c =? 43) eqn:E2; [inversion Ek; subst; reflexivity|].
    destruct (c =? 42) eqn:E3; [inversion Ek; subst; reflexivity|]. discriminate.
  - cbv iota in Ek |- *. set (s := c :: c2 :: r) in *.
    change (split_at_star [] s) with (split_first_star [] s).
    destruct (split_first_star [] s) as [[a b]|] eqn:Esp; [|discriminate].
    destruct ((is_nil a || uint_spelling a) && (is_nil b || uint_spelling b)) eqn:Eab; [|discriminate].
    inversion Ek; subst k. clear Ek. cbn [convert_occurrence].
    apply andb_prop in Eab. destruct Eab as [Ea Eb].
    apply split_first_star_spec in Esp. cbn [rev app] in Esp. rewrite Esp.
    rewrite occur_bounds_split by (apply empty_or_uint_plain; assumption).
    destruct a as [|a0 a'], b as [|b0 b']; cbn [obound obind omap];
      repeat (destruct (uint_lit (_ :: _))); reflexivity.
Qed.

Lemma to_digit_10 : forall d, is_digit d = true -> to_digit 10 d = Some (d - 48).
Proof. intros d H. rewrite (to_digit_value 10) by lia. apply digit_value_digit, H. Qed.

Lemma positional_digit : forall d, is_digit d = true -> positional 10 [d] = Some (d - 48).
Proof.
  intros d H. unfold positional. cbn [positional_acc]. rewrite (digit_value_digit d H). reflexivity.
Qed.

Lemma tag_sem_head : forall mt c,
  omap tag_sem (if mt =? 6 then Some (TTagged c) else Some (TMajor mt c)) = Some (Some mt, c).
Proof. intros mt c. destruct (N.eqb_spec mt 6) as [->|_]; reflexivity. Qed.

Theorem tag_ok : forall s, tag_spelling s = true -> omap tag_sem (convert_tag_head s) = tag_value s.
Proof.
  intros s Hs. unfold tag_spelling in Hs. unfold convert_tag_head, tag_value.
  destruct s as [|h [|d [|dot u]]]; [discriminate| | |].
  - rewrite Hs. reflexivity.
  - apply andb_prop in Hs. destruct Hs as [Hh Hd].
    rewrite Hh, (positional_digit d Hd), (to_digit_10 d Hd). apply tag_sem_head.
  - apply andb_prop in Hs. destruct Hs as [Hs Hu]. apply andb_prop in Hs. destruct Hs as [Hs Hdot].
    apply andb_prop in Hs. destruct Hs as [Hh Hd].
    rewrite Hh, (positional_digit d Hd), (to_digit_10 d Hd). cbn [after_dot]. rewrite Hdot, (uint_lit_ok u Hu).
    destruct (uint_lit u) as [v|]; [apply tag_sem_head | reflexivity].
Qed.

Example uint_example : uint_spelling [48; 88; 102; 70] = true /\ parse_u64_lit [48; 88; 102; 70] = Some 255.
Proof. vm_compute. auto. Qed.
Example uint_reject_example :      (* 18446744073709551616 = 2^64 *)
  let s := [49;56;52;52;54;55;52;52;48;55;51;55;48;57;53;53;49;54;49;54] in
  uint_spelling s = true /\ parse_u64_lit s = None /\ uint_value s = Some (2 ^ 64).
Proof. vm_compute. auto. Qed.
Example int_example :              (* -0x8000000000000000 and -9223372036854775809 *)
  parse_int_lit [45;48;120;56;48;48;48;48;48;48;48;48;48;48;48;48;48;48;48] = Some (- 2 ^ 63)%Z
  /\ int_spelling [45;57;50;50;51;51;55;50;48;51;54;56;53;52;55;55;53;56;48;57] = true
  /\ parse_int_lit [45;57;50;50;51;51;55;50;48;51;54;56;53;52;55;55;53;56;48;57] = None.
Proof. vm_compute. auto. Qed.
Example occur_example :            (* 0x3*0b101 *)
  occur_spelling [48;120;51;42;48;98;49;48;49] = true
  /\ occur_model [48;120;51;42;48;98;49;48;49] = Some (OExact (Some 3) (Some 5))
  /\ occur_model [42; 53] = Some (OExact None (Some 5)) /\ occur_model [53; 42] = Some (OExact (Some 5) None).
Proof. vm_compute. auto. Qed.
Example tag_example :              (* #6.0x20 *)
  tag_spelling [35;54;46;48;120;50;48] = true /\ convert_tag_head [35;54;46;48;120;50;48] = Some (TTagged (Some 32)).
Proof. vm_compute. auto. Qed.
