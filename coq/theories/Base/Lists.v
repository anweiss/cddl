(* Facts about lists, about [lenN], [takeN] and [take_k] of Base/Bytes.v, and about two-digit numbers in a radix. *)
From Coq Require Import List NArith Lia Bool ZifyBool.
From Cddl Require Base.Bytes.
Import ListNotations Base.Bytes(lenN, takeN, take_k).
Local Open Scope N_scope.

Lemma lenN_nil {A} : lenN (@nil A) = 0.
Proof. reflexivity. Qed.
Lemma lenN_cons {A} (x : A) l : lenN (x :: l) = lenN l + 1.
Proof. unfold lenN. cbn [length]. lia. Qed.
Lemma lenN_app {A} (a b : list A) : lenN (a ++ b) = lenN a + lenN b.
Proof. unfold lenN. rewrite app_length. lia. Qed.
Lemma lenN_rev {A} (a : list A) : lenN (rev a) = lenN a.
Proof. unfold lenN. rewrite rev_length. reflexivity. Qed.

Lemma takeN_0 bs : takeN 0 bs = Some ([], bs).
Proof. destruct bs; reflexivity. Qed.

Lemma takeN_cases : forall bs n,
  match takeN n bs with Some (p, t) => bs = p ++ t /\ lenN p = n | None => lenN bs < n end.
Proof.
  induction bs as [|b r IH]; intros n; cbn [takeN]; destruct (n =? 0) eqn:E.
  1, 3: split; [reflexivity|rewrite lenN_nil; lia].
  - rewrite lenN_nil. lia.
  - specialize (IH (N.pred n)). rewrite lenN_cons. destruct (takeN (N.pred n) r) as [[h t]|]; [|lia].
    destruct IH as [-> L]. split; [reflexivity|]. rewrite lenN_cons. lia.
Qed.

Lemma takeN_spec r n p t : takeN n r = Some (p, t) -> r = p ++ t /\ lenN p = n.
Proof. intros H. pose proof (takeN_cases r n) as C. rewrite H in C. exact C. Qed.

Lemma takeN_none_iff bs n : takeN n bs = None <-> lenN bs < n.
Proof.
  pose proof (takeN_cases bs n) as C.
  destruct (takeN n bs) as [[p t]|]; split; intros H; [discriminate| |exact C|reflexivity].
  destruct C as [-> <-]. rewrite lenN_app in H. lia.
Qed.

Lemma takeN_split : forall p t n,
  takeN (lenN p + n) (p ++ t) = match takeN n t with Some (q, u) => Some (p ++ q, u) | None => None end.
Proof.
  induction p as [|b p IH]; intros t n.
  - rewrite lenN_nil, N.add_0_l. cbn [app]. destruct (takeN n t) as [[q u]|]; reflexivity.
  - rewrite lenN_cons. cbn [app takeN]. destruct (lenN p + 1 + n =? 0) eqn:E; [lia|].
    replace (N.pred (lenN p + 1 + n)) with (lenN p + n) by lia. rewrite IH.
    destruct (takeN n t) as [[q u]|]; reflexivity.
Qed.

Lemma takeN_app p t : takeN (lenN p) (p ++ t) = Some (p, t).
Proof. rewrite <- (N.add_0_r (lenN p)), takeN_split, takeN_0, app_nil_r. reflexivity. Qed.

Lemma takeN_add a b bs :
  takeN (a + b) bs =
  match takeN a bs with
  | Some (p, t) => match takeN b t with Some (q, u) => Some (p ++ q, u) | None => None end
  | None => None
  end.
Proof.
  destruct (takeN a bs) as [[p t]|] eqn:T.
  - apply takeN_spec in T as [-> <-]. apply takeN_split.
  - apply takeN_none_iff in T. apply takeN_none_iff. lia.
Qed.

Lemma take_k_takeN : forall k bs, take_k k bs = takeN (N.of_nat k) bs.
Proof.
  induction k as [|k IH]; intros bs; [symmetry; apply takeN_0|].
  destruct bs as [|b r]; cbn [take_k takeN]; (destruct (N.of_nat (S k) =? 0) eqn:E; [lia|]); [reflexivity|].
  rewrite IH. replace (N.pred (N.of_nat (S k))) with (N.of_nat k) by lia. reflexivity.
Qed.

Lemma take_k_spec k r h t : take_k k r = Some (h, t) -> r = h ++ t /\ length h = k.
Proof. rewrite take_k_takeN. intros H. apply takeN_spec in H as [-> L]. unfold lenN in L. split; [reflexivity|lia]. Qed.

Lemma take_k_app k h t : length h = k -> take_k k (h ++ t) = Some (h, t).
Proof. intros <-. rewrite take_k_takeN. apply takeN_app. Qed.

Lemma forallb_rev {A} (f : A -> bool) l : forallb f (rev l) = forallb f l.
Proof.
  induction l as [|a l IH]; [reflexivity|].
  cbn [rev forallb]. rewrite forallb_app, IH. cbn [forallb]. rewrite andb_true_r. apply andb_comm.
Qed.

Lemma forallb_impl {A} (f g : A -> bool) : (forall x, f x = true -> g x = true) ->
  forall l, forallb f l = true -> forallb g l = true.
Proof. intros H l Hl. rewrite forallb_forall in *. auto. Qed.

Lemma NoDup_app_inv {A} (l1 l2 : list A) : NoDup (l1 ++ l2) ->
  NoDup l1 /\ NoDup l2 /\ forall x, In x l1 -> In x l2 -> False.
Proof.
  induction l1 as [|a l1 IH]; intros H; [repeat split; [constructor|exact H|intros x []]|].
  cbn in H. inversion H as [|? ? Hn Hnd]; subst. destruct (IH Hnd) as (H1 & H2 & Hd).
  rewrite in_app_iff in Hn. repeat split; [constructor; tauto|exact H2|].
  intros x [->|Hx] Hx2; [tauto|exact (Hd x Hx Hx2)].
Qed.

Lemma Forall2_length {A B} (R : A -> B -> Prop) l l' : Forall2 R l l' -> length l = length l'.
Proof. induction 1; cbn [length]; congruence. Qed.

Lemma Forall2_diag {A} (R : A -> A -> Prop) : (forall x, R x x) -> forall l, Forall2 R l l.
Proof. intros H. induction l; constructor; auto. Qed.

Lemma list_ind2 {A} (P : list A -> Prop) : P [] -> (forall a, P [a]) ->
  (forall a b r, P r -> P (a :: b :: r)) -> forall l, P l.
Proof. intros H0 H1 H2. fix IH 1. intros [|a [|b r]]; [exact H0|apply H1|apply H2, IH]. Qed.

Lemma list_ind3 {A} (P : list A -> Prop) : P [] -> (forall a, P [a]) -> (forall a b, P [a; b]) ->
  (forall a b c r, P r -> P (a :: b :: c :: r)) -> forall l, P l.
Proof.
  intros H0 H1 H2 H3. fix IH 1. intros [|a [|b [|c r]]]; [exact H0|apply H1|apply H2|apply H3, IH].
Qed.

Lemma list_ind4 {A} (P : list A -> Prop) : P [] -> (forall a, P [a]) -> (forall a b, P [a; b]) ->
  (forall a b c, P [a; b; c]) -> (forall a b c d r, P r -> P (a :: b :: c :: d :: r)) -> forall l, P l.
Proof.
  intros H0 H1 H2 H3 H4. fix IH 1.
  intros [|a [|b [|c [|d r]]]]; [exact H0|apply H1|apply H2|apply H3|apply H4, IH].
Qed.

(* a two-digit number in radix m, taken apart and put together *)
Lemma div_pack m h l : l < m -> (h * m + l) / m = h.
Proof. intros H. symmetry. apply (N.div_unique _ m h l H). lia. Qed.
Lemma mod_pack m h l : l < m -> (h * m + l) mod m = l.
Proof. intros H. symmetry. apply (N.mod_unique _ m h l H). lia. Qed.
Lemma div_mod_join b m : b / m * m + b mod m = b.
Proof. rewrite N.mul_comm. symmetry. apply N.div_mod'. Qed.
