(* C17 - proofs about de-duplication and keyword escaping (Derive/Naming.v). [dedup_loop] is read as the relation
   [dedup_rel], which forgets how a free suffix is found; every theorem about [dedup] is an induction on it. *)
From Coq Require Import String List NArith Bool Lia FinFun.
From Cddl Require Import Base.Lists.
From Cddl Require Import Derive.Naming.
Import ListNotations.
Open Scope N_scope.

Lemma list_eqb_eq : forall a b, list_eqb a b = true <-> a = b.
Proof.
  induction a as [|x a IH]; destruct b as [|y b]; cbn [list_eqb]; split; intro H; try discriminate; try reflexivity.
  - apply andb_true_iff in H. destruct H as [H1 H2]. apply N.eqb_eq in H1. apply IH in H2. congruence.
  - inversion H; subst. apply andb_true_iff. split; [apply N.eqb_refl | apply IH; reflexivity].
Qed.

Lemma list_eqb_refl : forall a, list_eqb a a = true.
Proof. intro a. apply list_eqb_eq. reflexivity. Qed.

Lemma list_eqb_neq : forall a b, list_eqb a b = false <-> a <> b.
Proof. intros a b. rewrite <- list_eqb_eq. symmetry. apply not_true_iff_false. Qed.

Lemma list_eqb_sym : forall a b, list_eqb a b = list_eqb b a.
Proof. intros a b. apply eq_true_iff_eq. rewrite !list_eqb_eq. split; congruence. Qed.

Lemma memb_In : forall x l, memb x l = true <-> In x l.
Proof.
  intros x l. unfold memb. rewrite existsb_exists. split.
  - intros [y [Hy E]]. apply list_eqb_eq in E. subst. exact Hy.
  - intro H. exists x. split; [exact H | apply list_eqb_refl].
Qed.

Lemma occN_app : forall b l1 l2, occN b (l1 ++ l2) = occN b l1 + occN b l2.
Proof. induction l1 as [|x l1 IH]; intro l2; cbn [occN app]; [lia | rewrite IH; lia]. Qed.

Lemma occN_snoc : forall b l n, occN b (l ++ [n]) = occN b l + (if list_eqb b n then 1 else 0).
Proof. intros. rewrite occN_app. cbn [occN]. lia. Qed.

Lemma occN_pos_In : forall b l, 0 < occN b l <-> In b l.
Proof.
  induction l as [|x l IH]; cbn [occN In]; [split; [lia | intros []] |].
  rewrite <- IH. destruct (list_eqb b x) eqn:E.
  - apply list_eqb_eq in E. split; [auto | lia].
  - apply list_eqb_neq in E. split; [intro H; right; lia | intros [H | H]; [congruence | lia]].
Qed.

Lemma seen_get_set : forall seen k v b,
  seen_get (seen_set seen k v) b = if list_eqb b k then v else seen_get seen b.
Proof.
  induction seen as [|[k' v'] t IH]; intros k v b; cbn [seen_set seen_get]; [reflexivity |].
  destruct (list_eqb k k') eqn:E; cbn [seen_get].
  - apply list_eqb_eq in E. subst k'. destruct (list_eqb b k); reflexivity.
  - rewrite IH. destruct (list_eqb b k') eqn:E'; [| reflexivity].
    apply list_eqb_eq in E'. subst k'. rewrite list_eqb_sym, E. reflexivity.
Qed.

Definition seen_inv (seen : list (list N * N)) (p : list (list N)) : Prop :=
  forall b, 0 < seen_get seen b <-> In b p.

Lemma seen_inv_nil : seen_inv [] [].
Proof. intro b. split; [cbn; lia | intros []]. Qed.

Lemma seen_inv_step : forall seen p n v, seen_inv seen p -> 0 < v -> seen_inv (seen_set seen n v) (n :: p).
Proof.
  intros seen p n v H Hv b. rewrite seen_get_set. destruct (list_eqb b n) eqn:E.
  - apply list_eqb_eq in E. subst b. split; [left; reflexivity | intros _; exact Hv].
  - apply list_eqb_neq in E. rewrite (H b).
    split; [right; assumption | intros [H1 | H1]; [congruence | exact H1]].
Qed.

(* the number a digit string spells: left inverse of [dec], hence [dec_inj] *)
Definition dval (l : list N) : N := fold_left (fun a c => a * 10 + (c - 48)) l 0.

Lemma dval_snoc : forall l d, dval (l ++ [d]) = dval l * 10 + (d - 48).
Proof. intros. unfold dval. rewrite fold_left_app. reflexivity. Qed.

Lemma dec_aux_S : forall f n acc, dec_aux (S f) n acc =
  if n / 10 =? 0 then (48 + n mod 10) :: acc else dec_aux f (n / 10) ((48 + n mod 10) :: acc).
Proof. reflexivity. Qed.

Lemma mod10_digit : forall n, is_digit (48 + n mod 10) = true.
Proof.
  intro n. pose proof (N.mod_lt n 10 ltac:(discriminate)) as H. revert H. generalize (n mod 10). intros r H.
  unfold is_digit. apply andb_true_iff. split; apply N.leb_le; lia.
Qed.

Lemma dec_aux_spec : forall fuel n acc, n < 2 ^ N.of_nat fuel ->
  exists ds, dec_aux (S fuel) n acc = ds ++ acc /\ ds <> [] /\ forallb is_digit ds = true /\ dval ds = n.
Proof.
  induction fuel as [|f IH]; intros n acc Hn; rewrite dec_aux_S.
  - assert (n = 0) by (change (2 ^ N.of_nat 0) with 1 in Hn; lia). subst n.
    exists [48]. repeat split; try reflexivity; discriminate.
  - pose proof (N.div_mod n 10 ltac:(discriminate)) as Hq. pose proof (mod10_digit n) as Hd.
    set (q := n / 10) in *. set (r := n mod 10) in *. clearbody q r. destruct (q =? 0) eqn:E.
    + apply N.eqb_eq in E. exists [48 + r]. cbn [forallb]. rewrite Hd.
      repeat split; [discriminate |]. unfold dval. cbn [fold_left]. lia.
    + destruct (IH q ((48 + r) :: acc)) as [ds [E1 [_ [D V]]]].
      { rewrite Nat2N.inj_succ, N.pow_succ_r' in Hn. lia. }
      exists (ds ++ [48 + r]). rewrite E1, <- app_assoc, forallb_app, D, dval_snoc, V. cbn [forallb]. rewrite Hd.
      repeat split; [destruct ds; discriminate | lia].
Qed.

Lemma pos_lt_pow_size : forall p, N.pos p < 2 ^ N.of_nat (Pos.size_nat p).
Proof.
  induction p as [p IH|p IH|]; cbn [Pos.size_nat]; [| | reflexivity]; rewrite Nat2N.inj_succ, N.pow_succ_r'; lia.
Qed.

Lemma dec_spec : forall n, dec n <> [] /\ forallb is_digit (dec n) = true /\ dval (dec n) = n.
Proof.
  intro n. destruct (dec_aux_spec (N.size_nat n) n []) as [ds [E H]].
  - destruct n as [|p]; [reflexivity | apply pos_lt_pow_size].
  - unfold dec. rewrite E, app_nil_r. exact H.
Qed.

Lemma dec_nonempty : forall n, dec n <> [].
Proof. intro n. apply dec_spec. Qed.

Lemma dec_digits : forall n, forallb is_digit (dec n) = true.
Proof. intro n. apply dec_spec. Qed.

Lemma dec_inj : forall a b, dec a = dec b -> a = b.
Proof.
  intros a b H. rewrite <- (proj2 (proj2 (dec_spec a))), <- (proj2 (proj2 (dec_spec b))), H. reflexivity.
Qed.

Lemma split_at_sep : forall (ok : N -> bool) sep (x x' y y' : list N), ok sep = false ->
  forallb ok x = true -> forallb ok x' = true ->
  x ++ sep :: y = x' ++ sep :: y' -> x = x' /\ y = y'.
Proof.
  intros ok sep x x' y y' Hs. revert x'.
  induction x as [|a x IH]; intros [|a' x'] Hx Hx' E; cbn [app forallb] in *; inversion E; subst.
  - split; reflexivity.
  - rewrite Hs in Hx'. discriminate.
  - rewrite Hs in Hx. discriminate.
  - apply andb_true_iff in Hx, Hx'. destruct (IH x') as [E1 E2]; try tauto. subst. split; reflexivity.
Qed.

(* read from the end, a suffixed name is digits, then the underscore *)
Lemma suffixed_inj : forall b b' k k', suffixed b k = suffixed b' k' -> b = b' /\ k = k'.
Proof.
  intros b b' k k' E. unfold suffixed in E. cbn [app] in E.
  apply (f_equal (@rev N)) in E. rewrite !rev_app_distr in E. cbn [rev] in E. rewrite <- !app_assoc in E. cbn [app] in E.
  apply (split_at_sep is_digit) in E; try (rewrite forallb_rev; apply dec_digits); [|reflexivity].
  destruct E as [E1 E2]. apply (f_equal (@rev N)) in E1, E2. rewrite !rev_involutive in E1, E2.
  split; [exact E2 | apply dec_inj; exact E1].
Qed.

Lemma find_free_cases : forall fuel taken base n,
  match find_free fuel taken base n with
  | Some k => n <= k /\ ~ In (suffixed base k) taken
  | None => forall i, (i < fuel)%nat -> In (suffixed base (n + N.of_nat i)) taken
  end.
Proof.
  induction fuel as [|f IH]; intros taken base n; cbn [find_free]; [intros i Hi; lia |].
  destruct (memb (suffixed base n) taken) eqn:E.
  - specialize (IH taken base (n + 1)). destruct (find_free f taken base (n + 1)) as [k|].
    + split; [lia | apply IH].
    + intros [|i] Hi; [rewrite N.add_0_r; apply memb_In; exact E |].
      replace (n + N.of_nat (S i)) with (n + 1 + N.of_nat i) by lia. apply IH. lia.
  - split; [lia |]. intro Hin. apply memb_In in Hin. congruence.
Qed.

(* the search never runs out of fuel: the |taken| + 1 names it tries are distinct, so they cannot all be taken *)
Lemma find_free_total : forall taken base n,
  exists k, find_free (S (List.length taken)) taken base n = Some k /\ n <= k /\ ~ In (suffixed base k) taken.
Proof.
  intros taken base n. pose proof (find_free_cases (S (List.length taken)) taken base n) as C.
  destruct (find_free _ taken base n) as [k|]; [exists k; split; [reflexivity | exact C] | exfalso].
  set (tried := map (fun i => suffixed base (n + N.of_nat i)) (seq 0 (S (List.length taken)))).
  assert (I : incl tried taken).
  { intros x Hx. apply in_map_iff in Hx. destruct Hx as [i [<- Hi]]. apply in_seq in Hi. apply C. lia. }
  assert (D : NoDup tried).
  { apply Injective_map_NoDup; [| apply seq_NoDup]. intros i j E. apply suffixed_inj in E. lia. }
  apply NoDup_incl_length in I; [| exact D]. unfold tried in I. rewrite map_length, seq_length in I. lia.
Qed.

Definition renamed (f : field) (n : N) : field :=
  {| fname := suffixed (fname f) n;
     forig := if list_eqb (forig f) (fname f) then suffixed (fname f) n else forig f |}.

(* [p] = the names met so far. A field whose name is new is kept; any other gets a suffixed name that is not
   taken, which is then taken. How the suffix is found (the counters in `seen`) does not matter to any of the
   theorems below. *)
Inductive dedup_rel : list (list N) -> list (list N) -> list field -> list field -> Prop :=
| DR_nil : forall taken p, dedup_rel taken p [] []
| DR_keep : forall taken p f t r,
    ~ In (fname f) p -> dedup_rel taken (fname f :: p) t r -> dedup_rel taken p (f :: t) (f :: r)
| DR_rename : forall taken p f t r n,
    In (fname f) p -> ~ In (suffixed (fname f) n) taken ->
    dedup_rel (suffixed (fname f) n :: taken) (fname f :: p) t r ->
    dedup_rel taken p (f :: t) (renamed f n :: r).

Lemma dedup_loop_rel : forall fs taken seen p, seen_inv seen p ->
  exists out, dedup_loop taken seen fs = Some out /\ dedup_rel taken p fs out.
Proof.
  induction fs as [|f t IH]; intros taken seen p Hinv; cbn [dedup_loop].
  - exists []. split; [reflexivity | constructor].
  - pose proof (Hinv (fname f)) as Hf. destruct (1 <? seen_get seen (fname f) + 1) eqn:E.
    + apply N.ltb_lt in E.
      destruct (find_free_total taken (fname f) (seen_get seen (fname f) + 1 - 1)) as [n [-> F]].
      destruct (IH (suffixed (fname f) n :: taken) _ _ (seen_inv_step _ _ (fname f) (n + 1) Hinv ltac:(lia)))
        as [r [-> R]].
      eexists. split; [reflexivity |]. apply DR_rename; [apply Hf; lia | apply F | exact R].
    + apply N.ltb_ge in E.
      destruct (IH taken _ _ (seen_inv_step _ _ (fname f) (seen_get seen (fname f) + 1) Hinv ltac:(lia)))
        as [r [-> R]].
      eexists. split; [reflexivity |]. apply DR_keep; [rewrite <- Hf; lia | exact R].
Qed.

Lemma dedup_rel_ex : forall fs, exists out, dedup fs = Some out /\ dedup_rel (map fname fs) [] fs out.
Proof. intro fs. exact (dedup_loop_rel fs _ [] [] seen_inv_nil). Qed.

(* the fuel of the suffix search is never exhausted *)
Theorem dedup_total : forall fs, exists out, dedup fs = Some out.
Proof. intro fs. destruct (dedup_rel_ex fs) as [out [E _]]. exists out. exact E. Qed.

Lemma dedup_rel_of : forall fs out, dedup fs = Some out -> dedup_rel (map fname fs) [] fs out.
Proof. intros fs out H. destruct (dedup_rel_ex fs) as [out' [E R]]. rewrite E in H. injection H as <-. exact R. Qed.

Theorem dedup_preserves_length : forall fs out, dedup fs = Some out -> List.length out = List.length fs.
Proof.
  intros fs out H. apply dedup_rel_of in H. induction H; cbn [List.length]; congruence.
Qed.

Lemma dedup_rel_cons : forall taken p f t out, dedup_rel taken p (f :: t) out ->
  exists f' r taken', out = f' :: r /\ dedup_rel taken' (fname f :: p) t r /\ (~ In (fname f) p -> f' = f).
Proof.
  intros taken p f t out H. inversion H; subst.
  - exists f, r, taken. auto.
  - exists (renamed f n), r, (suffixed (fname f) n :: taken). split; [reflexivity |]. split; [assumption | contradiction].
Qed.

Lemma keeps_first_gen : forall pre taken p f post out,
  dedup_rel taken p (pre ++ f :: post) out -> ~ In (fname f) p -> ~ In (fname f) (map fname pre) ->
  exists o1 o2, out = o1 ++ f :: o2 /\ List.length o1 = List.length pre.
Proof.
  induction pre as [|g pre IH]; intros taken p f post out H Hp Hnin; cbn [app map In] in *;
    apply dedup_rel_cons in H; destruct H as [f' [r [taken' [-> [R Hk]]]]].
  - rewrite (Hk Hp). exists [], r. split; reflexivity.
  - destruct (IH taken' (fname g :: p) f post r R) as [o1 [o2 [-> L]]].
    + intros [E | Hin]; [apply Hnin; left; exact E | exact (Hp Hin)].
    + intro Hin. apply Hnin. right. exact Hin.
    + exists (f' :: o1), o2. split; [reflexivity | cbn [List.length]; rewrite L; reflexivity].
Qed.

(* the first field carrying a name keeps its name and its JSON key *)
Theorem dedup_keeps_first : forall pre f post out,
  ~ In (fname f) (map fname pre) -> dedup (pre ++ f :: post) = Some out ->
  exists o1 o2, out = o1 ++ f :: o2 /\ List.length o1 = List.length pre.
Proof.
  intros pre f post out H E. exact (keeps_first_gen pre _ [] f post out (dedup_rel_of _ _ E) (fun x => x) H).
Qed.

Lemma dedup_rel_id : forall taken p fs out, dedup_rel taken p fs out ->
  NoDup (map fname fs) -> (forall f, In f fs -> ~ In (fname f) p) -> out = fs.
Proof.
  induction 1 as [| taken p f t r Hn _ IH | taken p f t r n Hin]; intros Hnd Hp; [reflexivity | | ].
  - cbn [map] in Hnd. inversion Hnd as [|x l Hnin Hnd']; subst. f_equal. apply IH; [exact Hnd' |].
    intros g Hg [E | Hi]; [apply Hnin; rewrite E; apply in_map; exact Hg | exact (Hp g (or_intror Hg) Hi)].
  - destruct (Hp f (or_introl eq_refl) Hin).
Qed.

Theorem dedup_id_on_nodup : forall fs, NoDup (map fname fs) -> dedup fs = Some fs.
Proof.
  intros fs H. destruct (dedup_rel_ex fs) as [out [E R]]. rewrite E. f_equal.
  apply (dedup_rel_id _ _ _ _ R H). intros f _ [].
Qed.

(* a name that is taken comes out only as an original name not processed yet *)
Lemma dedup_rel_out : forall taken p fs out, dedup_rel taken p fs out ->
  forall x, In x taken -> In x (map fname out) -> In x (map fname fs) /\ ~ In x p.
Proof.
  induction 1 as [| taken p f t r Hn _ IH | taken p f t r n Hin Hfree _ IH]; intros x Ht Hx; [destruct Hx | | ];
    cbn [map In] in *; destruct Hx as [<- | Hx].
  - split; [left; reflexivity | exact Hn].
  - destruct (IH x Ht Hx) as [H1 H2]. split; [right; exact H1 | intro Hi; apply H2; right; exact Hi].
  - destruct (Hfree Ht).
  - destruct (IH x (or_intror Ht) Hx) as [H1 H2]. split; [right; exact H1 | intro Hi; apply H2; right; exact Hi].
Qed.

Lemma dedup_rel_nodup : forall taken p fs out, dedup_rel taken p fs out ->
  incl (map fname fs) taken -> NoDup (map fname out).
Proof.
  induction 1 as [| taken p f t r Hn R IH | taken p f t r n Hin Hfree R IH]; intro Hincl; cbn [map] in *; constructor.
  - intro Hi. apply (dedup_rel_out _ _ _ _ R _ (Hincl _ (or_introl eq_refl)) Hi). left. reflexivity.
  - apply IH. intros y Hy. apply Hincl. right. exact Hy.
  - intro Hi. apply Hfree, Hincl. right. exact (proj1 (dedup_rel_out _ _ _ _ R _ (or_introl eq_refl) Hi)).
  - apply IH. intros y Hy. right. apply Hincl. right. exact Hy.
Qed.

(* unique field names per type, for every field list *)
Theorem dedup_unique : forall fs out, dedup fs = Some out -> NoDup (map fname out).
Proof.
  intros fs out H. exact (dedup_rel_nodup _ _ _ _ (dedup_rel_of _ _ H) (incl_refl _)).
Qed.

Definition f_of (n o : string) : field := {| fname := s2n n; forig := s2n o |}.

(* the witness of the repaired finding kf-c17-dedup-suffix-collision *)
Lemma dedup_former_witness :
  option_map (map fname) (dedup [f_of "a" "a"; f_of "a_1" "a_1"; f_of "a" "a"]%string) = Some (map s2n ["a"; "a_1"; "a_2"]%string).
Proof. vm_compute. reflexivity. Qed.

(* a renamed field loses its key only when the key is the name; its name then occurs twice in [names] *)
Lemma dedup_rel_key : forall taken p fs out, dedup_rel taken p fs out ->
  forall names, (forall b, occN b names = occN b p + occN b (map fname fs)) ->
  Forall2 (fun f f' => key_stable names f = true -> forig f' = forig f) fs out.
Proof.
  induction 1 as [| taken p f t r Hn _ IH | taken p f t r n Hin Hfree _ IH]; intros names Hocc; constructor;
    try (apply IH; intro b; rewrite Hocc; cbn [map occN]; lia).
  - reflexivity.
  - intro Hks. cbn [renamed forig]. destruct (list_eqb (forig f) (fname f)) eqn:Eo; [|reflexivity].
    exfalso. unfold key_stable in Hks. rewrite Eo in Hks. cbn [negb orb] in Hks. apply N.eqb_eq in Hks.
    apply occN_pos_In in Hin. rewrite Hocc in Hks. cbn [map occN] in Hks. rewrite list_eqb_refl in Hks. lia.
Qed.

(* Full statement (false of the code, see dedup_keeps_key_refuted):
     every field that comes from a named key keeps that key as its serde name.
   Pointwise it holds for every field whose key differs from its name, or whose name is unique. *)
Theorem dedup_keeps_key_partial : forall fs out, dedup fs = Some out ->
  Forall2 (fun f f' => key_stable (map fname fs) f = true -> forig f' = forig f) fs out.
Proof. intros fs out H. apply (dedup_rel_key _ _ _ _ (dedup_rel_of _ _ H)). reflexivity. Qed.

Theorem dedup_keeps_key_refuted : exists ks out,
  struct_fields (map KNamed ks) = Some out /\ map serde_name out <> ks.
Proof.
  exists [s2n "foo-bar"; s2n "foo_bar"]. eexists. split; [vm_compute; reflexivity|]. vm_compute. intro H. discriminate H.
Qed.

Lemma code_kw_no_trailing_us : forallb (fun w => negb (last w 0 =? US)) code_keywords = true.
Proof. vm_compute. reflexivity. Qed.

Lemma snoc_us_not_in : forall l r, forallb (fun w => negb (last w 0 =? US)) l = true -> memb (r ++ [US]) l = false.
Proof.
  intros l r H. destruct (memb (r ++ [US]) l) eqn:E; [|reflexivity].
  apply memb_In in E. rewrite forallb_forall in H. specialize (H _ E).
  rewrite last_last, N.eqb_refl in H. discriminate.
Qed.

(* the escaped name is never one of the words the code treats as keywords *)
Theorem snake_not_keyword : forall s, is_rust_keyword (to_snake s) = false.
Proof.
  intro s. unfold to_snake. destruct (is_rust_keyword (snake_pre s)) eqn:E; [|exact E].
  apply snoc_us_not_in. exact code_kw_no_trailing_us.
Qed.

Lemma reserved_all_escaped : forallb is_rust_keyword rust_reserved_2021 = true.
Proof. vm_compute. reflexivity. Qed.

Lemma reserved_keyword : forall w, is_reserved w = true -> is_rust_keyword w = true.
Proof.
  intros w R. apply memb_In in R. pose proof reserved_all_escaped as H. rewrite forallb_forall in H. exact (H w R).
Qed.

(* the escaped name is never a word reserved in edition 2021 (The Rust Reference list) *)
Theorem snake_not_reserved : forall s, is_reserved (to_snake s) = false.
Proof.
  intro s. destruct (is_reserved (to_snake s)) eqn:R; [| reflexivity].
  apply reserved_keyword in R. rewrite snake_not_keyword in R. discriminate.
Qed.

(* every word the code escapes is reserved: nothing is escaped needlessly *)
Lemma code_keywords_reserved : forallb is_reserved code_keywords = true.
Proof. vm_compute. reflexivity. Qed.
