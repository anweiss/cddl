(* Derive/NamingShape.v - identifier shape of generated names, PascalCase collisions, type-name lists, tag helper modules. *)
From Coq Require Import String List NArith Bool Lia.
From Cddl Require Import Base.Lists Derive.Naming Derive.NamingProofs.
Import ListNotations.
Open Scope N_scope.

Definition snake_char (c : N) : bool := is_lower c || is_digit c || (c =? US).
Definition tail_char (x : N) : bool := is_lower x || is_digit x.

(* The classes are ranges of character codes: how they relate is linear arithmetic under boolean connectives. *)
Ltac classes :=
  unfold snake_char, tail_char, ident_char, is_alnum, is_alpha, is_upper, is_lower, is_digit, US in *; lia.

Lemma snake_char_lower_of_upper : forall c, is_upper c = true -> snake_char (to_lower c) = true.
Proof. intros c H. unfold to_lower. rewrite H. classes. Qed.

Lemma snake_char_ident : forall c, snake_char c = true -> ident_char c = true.
Proof. intros c H. classes. Qed.

Lemma snake_head_ok : forall c, snake_char c = true -> is_digit c = false -> (is_alpha c || (c =? US)) = true.
Proof. intros c H Hd. classes. Qed.

Lemma snake_char_not_upper : forall c, snake_char c = true -> negb (is_upper c) = true.
Proof. intros c H. classes. Qed.

Lemma lower_is_alnum : forall c, is_lower c = true -> is_alnum c = true.
Proof. intros c H. classes. Qed.

Lemma lower_not_upper : forall c, is_lower c = true -> is_upper c = false.
Proof. intros c H. classes. Qed.

Lemma tail_alnum : forall c, tail_char c = true -> is_alnum c = true.
Proof. intros c H. classes. Qed.

Lemma tail_not_upper : forall c, tail_char c = true -> is_upper c = false.
Proof. intros c H. classes. Qed.

Lemma upper_of_lower : forall c, is_lower c = true -> is_upper (c - 32) = true /\ to_lower (c - 32) = c.
Proof.
  intros c H. assert (U : is_upper (c - 32) = true) by classes.
  split; [exact U |]. unfold to_lower. rewrite U. classes.
Qed.

Lemma snake_char_us : snake_char US = true.
Proof. reflexivity. Qed.

Lemma snake_loop_chars : forall s first pu ps racc,
  forallb snake_char racc = true -> forallb snake_char (snake_loop s first pu ps racc) = true.
Proof.
  induction s as [|c t IH]; intros first pu ps racc H; cbn [snake_loop]; [exact H|].
  destruct (is_upper c) eqn:Eu.
  - apply IH. cbn [forallb]. rewrite (snake_char_lower_of_upper c Eu).
    destruct (negb first && negb pu && negb ps); cbn [forallb andb]; [rewrite snake_char_us|]; exact H.
  - destruct (is_lower c || is_digit c) eqn:El.
    + apply IH. cbn [forallb]. unfold snake_char at 1. rewrite El. exact H.
    + apply IH. destruct racc as [|x r]; [exact H|]. destruct (x =? US); [exact H|].
      cbn [forallb]. rewrite snake_char_us. exact H.
Qed.

Lemma drop_us_chars : forall r, forallb snake_char r = true -> forallb snake_char (drop_us r) = true.
Proof.
  induction r as [|x t IH]; intro H; [reflexivity|]. cbn [drop_us].
  destruct (x =? US); [apply IH; cbn [forallb] in H; apply andb_true_iff in H; tauto | exact H].
Qed.

Lemma drop_us_head : forall r x t, drop_us r = x :: t -> x <> US.
Proof.
  induction r as [|y r IH]; intros x t H; [discriminate|]. cbn [drop_us] in H.
  destruct (y =? US) eqn:E; [apply (IH x t H)|]. inversion H; subst. apply N.eqb_neq. exact E.
Qed.

Lemma snake_pre_shape : forall s,
  exists c t, snake_pre s = c :: t /\ forallb snake_char (c :: t) = true /\ is_digit c = false /\ c :: t <> [US].
Proof.
  intro s. unfold snake_pre.
  set (d := drop_us (snake_loop s true false false [])).
  assert (Hc : forallb snake_char (rev d) = true).
  { rewrite forallb_rev. apply drop_us_chars. apply snake_loop_chars. reflexivity. }
  assert (Hu : rev d <> [US]).
  { intro E. apply (f_equal (@rev N)) in E. rewrite rev_involutive in E. apply (drop_us_head _ _ _ E). reflexivity. }
  destruct (rev d) as [|c t] eqn:Er.
  - exists 118, (s2n "alue"). repeat split; [discriminate].
  - destruct (is_digit c) eqn:Ed.
    + exists US, (c :: t). repeat split; [|discriminate].
      cbn [forallb] in *. rewrite snake_char_us. exact Hc.
    + exists c, t. repeat split; assumption.
Qed.

Lemma to_snake_shape : forall s,
  exists c t, to_snake s = c :: t /\ forallb snake_char (c :: t) = true /\ is_digit c = false /\ c :: t <> [US].
Proof.
  intro s. destruct (snake_pre_shape s) as [c [t [E [Hc [Hd Hu]]]]]. unfold to_snake. rewrite E.
  destruct (is_rust_keyword (c :: t)); [| exists c, t; auto].
  exists c, (t ++ [US]). split; [reflexivity |]. split; [| split; [exact Hd |]].
  - change (forallb snake_char ((c :: t) ++ [US]) = true). rewrite forallb_app, Hc. reflexivity.
  - intro E'. injection E' as _ E'. destruct t; discriminate.
Qed.

Lemma snake_shape_ident : forall c t,
  forallb snake_char (c :: t) = true -> is_digit c = false -> c :: t <> [US] -> ident_shape (c :: t) = true.
Proof.
  intros c t Hc Hd Hu. apply andb_true_iff in Hc as [Hc1 Hc2]. cbn [ident_shape].
  rewrite (snake_head_ok c Hc1 Hd), (forallb_impl _ _ snake_char_ident t Hc2). cbn [andb].
  destruct (list_eqb (c :: t) [US]) eqn:El; [| reflexivity]. apply list_eqb_eq in El. contradiction.
Qed.

Theorem snake_ident_shape : forall s, ident_shape (to_snake s) = true.
Proof. intro s. destruct (to_snake_shape s) as [c [t [-> [Hc [Hd Hu]]]]]. exact (snake_shape_ident c t Hc Hd Hu). Qed.

(* every generated field name is an identifier rustc accepts in edition 2021 *)
Theorem snake_ident_ok : forall s, ident_ok (to_snake s) = true.
Proof. intro s. unfold ident_ok. rewrite snake_ident_shape, snake_not_reserved. reflexivity. Qed.

Theorem snake_lowercase : forall s, forallb (fun c => negb (is_upper c)) (to_snake s) = true.
Proof.
  intro s. destruct (to_snake_shape s) as [c [t [-> [Hc _]]]]. exact (forallb_impl _ _ snake_char_not_upper _ Hc).
Qed.

(* Full statement (false of the code): forall a b, to_pascal a = to_pascal b -> a = b.
   Two distinct, valid CDDL rule names share one Rust type name. *)
Theorem pascal_injective_refuted : exists a b, a <> b /\ to_pascal a = to_pascal b.
Proof. exists (s2n "foo-bar"), (s2n "foo_bar"). split; [vm_compute; discriminate | vm_compute; reflexivity]. Qed.

(* Full statement (false of the code): forall s, ident_ok (to_pascal s) = true. *)
Theorem pascal_ident_ok_refuted :
  ident_ok (to_pascal (s2n "self")) = false /\ ident_ok (to_pascal (s2n "_1")) = false.
Proof. split; vm_compute; reflexivity. Qed.

Lemma split_alnum_run : forall seg rest cur, forallb is_alnum seg = true ->
  split_alnum (seg ++ rest) cur = split_alnum rest (rev seg ++ cur).
Proof.
  induction seg as [|c seg IH]; intros rest cur H; [reflexivity|].
  apply andb_true_iff in H as [H1 H2].
  cbn [app split_alnum rev]. rewrite H1, IH by exact H2. rewrite <- app_assoc. reflexivity.
Qed.

Lemma rev_nonempty : forall (A : Type) (l : list A), l <> [] -> rev l <> [].
Proof. intros A l H E. apply H. rewrite <- (rev_involutive l), E. reflexivity. Qed.

Lemma match_nonempty : forall (A B : Type) (l : list A) (x y : B), l <> [] ->
  match l with [] => x | _ :: _ => y end = y.
Proof. intros A B [|a l] x y H; [contradiction | reflexivity]. Qed.

Lemma split_alnum_seg : forall seg rest, forallb is_alnum seg = true -> seg <> [] ->
  match rest with [] => True | c :: _ => is_alnum c = false end ->
  split_alnum (seg ++ rest) [] = seg :: split_alnum (tl rest) [].
Proof.
  intros seg rest Ha Hne Hc. rewrite split_alnum_run, app_nil_r by exact Ha.
  destruct rest as [|c rest]; cbn [split_alnum tl]; [| rewrite Hc];
    rewrite match_nonempty, rev_involutive by (apply rev_nonempty; exact Hne); reflexivity.
Qed.

Lemma lower_seg_alnum : forall seg, lower_seg seg = true -> forallb is_alnum seg = true /\ seg <> [].
Proof.
  intros [|c t] H; [discriminate|]. apply andb_true_iff in H as [H1 H2].
  split; [|discriminate]. cbn [forallb]. rewrite (lower_is_alnum c H1). exact (forallb_impl _ _ tail_alnum t H2).
Qed.

Lemma kebab_cons : forall x y t, kebab (x :: y :: t) = x ++ DASH :: kebab (y :: t).
Proof. reflexivity. Qed.

Lemma split_kebab : forall segs, forallb lower_seg segs = true -> split_alnum (kebab segs) [] = segs.
Proof.
  induction segs as [|seg t IH]; intro H; [reflexivity|].
  apply andb_true_iff in H as [H1 H2]. destruct (lower_seg_alnum seg H1) as [Ha Hne].
  destruct t as [|seg' t'].
  - cbn [kebab]. rewrite <- (app_nil_r seg) at 1. apply split_alnum_seg; [assumption | assumption | exact I].
  - rewrite kebab_cons, split_alnum_seg by (assumption || reflexivity). cbn [tl]. rewrite (IH H2). reflexivity.
Qed.

Lemma pascal_seg_lower : forall c t, is_lower c = true -> pascal_seg (c :: t) = (c - 32) :: t.
Proof.
  intros c t H. unfold pascal_seg, seg_all_caps. cbn [forallb]. unfold is_alpha at 1.
  rewrite H, orb_true_r, (lower_not_upper c H). cbn [andb]. unfold to_upper. rewrite H. reflexivity.
Qed.

Lemma p2c_tail : forall t rest, forallb tail_char t = true -> p2c_loop (t ++ rest) false = t ++ p2c_loop rest false.
Proof.
  induction t as [|c t IH]; intros rest H; [reflexivity|].
  apply andb_true_iff in H as [H1 H2].
  cbn [app p2c_loop]. rewrite (tail_not_upper c H1), IH by exact H2. reflexivity.
Qed.

Lemma p2c_segs : forall segs first, forallb lower_seg segs = true -> segs <> [] ->
  p2c_loop (List.concat (map pascal_seg segs)) first = (if first then [] else [DASH]) ++ kebab segs.
Proof.
  induction segs as [|seg t IH]; intros first H Hne; [contradiction|].
  apply andb_true_iff in H as [H1 H2].
  destruct seg as [|c tl]; [discriminate|]. apply andb_true_iff in H1 as [Hc Ht].
  cbn [map List.concat]. rewrite (pascal_seg_lower c tl Hc). cbn [app p2c_loop].
  destruct (upper_of_lower c Hc) as [U L]. rewrite U, L.
  rewrite p2c_tail by exact Ht.
  destruct t as [|seg' t'].
  - cbn [map List.concat p2c_loop kebab]. rewrite app_nil_r. reflexivity.
  - rewrite (IH false H2), kebab_cons by discriminate. destruct first; reflexivity.
Qed.

(* pascal_to_cddl_name inverts to_pascal_case on lower-case kebab-case rule names
   (this is also what the #[cddl] attribute macro relies on to find the rule of a struct) *)
Theorem pascal_roundtrip_kebab : forall segs, forallb lower_seg segs = true -> segs <> [] ->
  pascal_to_cddl (to_pascal (kebab segs)) = kebab segs.
Proof.
  intros segs H Hne. unfold to_pascal. rewrite (split_kebab segs H).
  destruct (List.concat (map pascal_seg segs)) as [|x r] eqn:E.
  - (* an empty text is not sent to one that starts with a dash *)
    pose proof (p2c_segs segs false H Hne) as P. rewrite E in P. discriminate P.
  - unfold pascal_to_cddl. rewrite <- E. exact (p2c_segs segs true H Hne).
Qed.

Theorem pascal_injective_on_kebab : forall a b,
  forallb lower_seg a = true -> a <> [] -> forallb lower_seg b = true -> b <> [] ->
  to_pascal (kebab a) = to_pascal (kebab b) -> kebab a = kebab b.
Proof.
  intros a b Ha Hna Hb Hnb E.
  rewrite <- (pascal_roundtrip_kebab a Ha Hna), <- (pascal_roundtrip_kebab b Hb Hnb), E. reflexivity.
Qed.

Definition pname (r : bool * list N) : list N := to_pascal (snd r).

Lemma count_type_le_occ : forall all n, count_type_named all n <= occN n (map pname all).
Proof.
  induction all as [|[b nm] t IH]; intro n; cbn [count_type_named map occN]; [lia|].
  unfold pname at 1. cbn [snd]. rewrite (list_eqb_sym n (to_pascal nm)).
  specialize (IH n). destruct b; destruct (list_eqb (to_pascal nm) n); lia.
Qed.

Lemma occN_nodup_le1 : forall l n, NoDup l -> occN n l <= 1.
Proof.
  induction l as [|x l IH]; intros n H; cbn [occN]; [lia|].
  inversion H as [|y l' Hnin Hnd]; subst. specialize (IH n Hnd).
  destruct (list_eqb n x) eqn:E; [|lia]. apply list_eqb_eq in E. subst x.
  rewrite <- occN_pos_In in Hnin. lia.
Qed.

Lemma emit_loop_no_merge : forall all merged rs,
  (forall n, count_type_named all n <= 1) -> emit_loop all merged rs = map pname rs.
Proof.
  induction rs as [|[b nm] t IH]; intro H; [reflexivity|].
  cbn [emit_loop map]. unfold pname at 1. cbn [snd]. destruct b.
  - replace (1 <? count_type_named all (to_pascal nm)) with false
      by (symmetry; apply N.ltb_ge; apply H).
    rewrite IH by exact H. reflexivity.
  - rewrite IH by exact H. reflexivity.
Qed.

(* Full statement (false of the code, see emit_unique_refuted): forall rules, NoDup (emit_names rules)
   for rules with pairwise distinct CDDL names. It holds when the PascalCase names are distinct, and then
   nothing is merged. *)
Theorem emit_unique_partial : forall rules,
  NoDup (map pname rules) -> emit_names rules = map pname rules /\ NoDup (emit_names rules).
Proof.
  intros rules H.
  assert (E : emit_names rules = map pname rules).
  { unfold emit_names. apply emit_loop_no_merge. intro n.
    eapply N.le_trans; [apply count_type_le_occ | apply occN_nodup_le1; exact H]. }
  split; [exact E | rewrite E; exact H].
Qed.

Theorem emit_unique_refuted : exists rules,
  NoDup (map snd rules) /\ ~ NoDup (emit_names rules).
Proof.
  exists [(true, s2n "foo-bar"); (false, s2n "foo_bar")]. split.
  - cbn [map snd]. constructor; [|constructor; [intros []|constructor]].
    intros [H|[]]. vm_compute in H. discriminate.
  - vm_compute. intro H. apply NoDup_cons_iff in H. destruct H as [H _]. apply H. left. reflexivity.
Qed.

Lemma tags_loop_app : forall a b acc, collect_tags_loop acc (a ++ b) = collect_tags_loop (collect_tags_loop acc a) b.
Proof.
  induction a as [|t a IH]; intros b acc; [reflexivity|].
  cbn [app collect_tags_loop]. destruct (memb t acc); apply IH.
Qed.

Lemma tags_loop_prefix : forall l acc, exists rest, collect_tags_loop acc l = acc ++ rest.
Proof.
  induction l as [|t l IH]; intro acc; cbn [collect_tags_loop]; [exists []; symmetry; apply app_nil_r|].
  destruct (memb t acc); [apply IH|].
  destruct (IH (acc ++ [t])) as [rest E]. exists (t :: rest). rewrite E, <- app_assoc. reflexivity.
Qed.

Lemma tags_loop_In : forall l acc x, In x (collect_tags_loop acc l) <-> In x acc \/ In x l.
Proof.
  induction l as [|t l IH]; intros acc x; cbn [collect_tags_loop].
  - split; [left; assumption | intros [H|[]]; exact H].
  - destruct (memb t acc) eqn:E; rewrite IH; cbn [In].
    + apply memb_In in E. split; [intros [H|H]; auto | intros [H|[H|H]]; auto]. subst. left. exact E.
    + rewrite in_app_iff. cbn [In]. tauto.
Qed.

Lemma NoDup_snoc : forall (A : Type) (l : list A) x, NoDup l -> ~ In x l -> NoDup (l ++ [x]).
Proof.
  intros A l x H Hn. apply (NoDup_Add (Add_app x l [])). rewrite app_nil_r. auto.
Qed.

Lemma tags_loop_nodup : forall l acc, NoDup acc -> NoDup (collect_tags_loop acc l).
Proof.
  induction l as [|t l IH]; intros acc H; cbn [collect_tags_loop]; [exact H|].
  destruct (memb t acc) eqn:E; apply IH; [exact H|].
  apply NoDup_snoc; [exact H |]. intro Hin. apply memb_In in Hin. congruence.
Qed.

Theorem tags_nodup : forall uses, NoDup (collect_tags uses).
Proof. intro uses. apply tags_loop_nodup. constructor. Qed.

Theorem tags_complete : forall uses x, In x (collect_tags uses) <-> In x uses.
Proof. intros uses x. unfold collect_tags. rewrite tags_loop_In. cbn [In]. tauto. Qed.

(* first-use order: what is emitted for a prefix of the uses is a prefix of what is emitted, and a tag not
   used before comes next *)
Theorem tags_first_use_order : forall pre t post, ~ In t pre ->
  exists rest, collect_tags (pre ++ t :: post) = collect_tags pre ++ t :: rest.
Proof.
  intros pre t post H. unfold collect_tags. rewrite tags_loop_app. cbn [collect_tags_loop].
  destruct (memb t (collect_tags_loop [] pre)) eqn:E.
  - destruct H. apply (tags_complete pre), memb_In, E.
  - destruct (tags_loop_prefix post (collect_tags_loop [] pre ++ [t])) as [rest Er].
    exists rest. rewrite Er, <- app_assoc. reflexivity.
Qed.
