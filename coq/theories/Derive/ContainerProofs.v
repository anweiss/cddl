(* Derive/ContainerProofs.v - the container chosen for a named map member admits (and gives back) every
   member shape the CDDL occurrence / nullability admits, on the documented cells; the cells where this
   fails are exhibited. All statements are about Derive/Container.v (decision table as the code computes
   it + the assumed serde semantics). *)
From Coq Require Import List NArith.
From Cddl Require Import Derive.Container.
Import ListNotations.
Open Scope N_scope.

Definition named (k : keyform) : bool := match k with KBare | KText => true | _ => false end.

(* The whole table at once: on the documented cells an admitted shape is read and written back unchanged, except
   that `? key: T / null` with a null value comes back as an absent member (Option<Option<T>> reads null as the
   outer None, which skip_serializing_if drops). A finite table: 2 x 3 x 3 cells, 5 shapes each. *)
Lemma roundtrip_documented : forall o k e v ao s,
  named k = true -> documented_occ o = true -> documented_etype e = true ->
  cddl_admits o e v ao s = true ->
  roundtrip (field_desc o k e v) s = Some (if optional_nullable_null o e s then SAbsent else s).
Proof.
  intros o k e v ao s Hk Ho He Ha.
  replace (field_desc o k e v) with (field_desc o KBare e v) by (destruct k; try discriminate; reflexivity).
  destruct o; try discriminate; destruct e; try discriminate;
    destruct v, s as [| | |n|n]; try discriminate; unfold roundtrip; cbn; try destruct (n =? 0); reflexivity.
Qed.

Theorem container_adequate_partial : forall o k e v ao s,
  named k = true -> documented_occ o = true -> documented_etype e = true ->
  cddl_admits o e v ao s = true ->
  exists r, de_field (written_type (field_desc o k e v)) s = Some r.
Proof.
  intros o k e v ao s Hk Ho He Ha. pose proof (roundtrip_documented o k e v ao s Hk Ho He Ha) as R.
  unfold roundtrip in R. destruct (de_field _ s) as [r|]; [exists r; reflexivity | discriminate].
Qed.

(* Full statement over all occurrence indicators (false of the code): the same without documented_occ. *)
Theorem container_adequate_refuted : exists o e v ao s,
  cddl_admits o e v ao s = true /\ de_field (written_type (field_desc o KBare e v)) s = None.
Proof. exists OStar, EPlain, VScalar, ONone, SOne. split; reflexivity. Qed.

(* `0*1 key: T` means the same as `? key: T` but is not generated as optional *)
Theorem container_adequate_refuted_exact : exists s,
  cddl_admits (OExact (Some 0) (Some 1)) EPlain VScalar ONone s = true /\
  de_field (written_type (field_desc (OExact (Some 0) (Some 1)) KBare EPlain VScalar)) s = None.
Proof. exists SAbsent. split; reflexivity. Qed.

(* Full statement (false of the code, see container_roundtrip_refuted): the same without the
   optional_nullable_null exclusion. Every admitted shape is written back unchanged. *)
Theorem container_roundtrip_partial : forall o k e v ao s,
  named k = true -> documented_occ o = true -> documented_etype e = true ->
  cddl_admits o e v ao s = true -> optional_nullable_null o e s = false ->
  roundtrip (field_desc o k e v) s = Some s.
Proof.
  intros o k e v ao s Hk Ho He Ha Hx. rewrite (roundtrip_documented o k e v ao s Hk Ho He Ha), Hx. reflexivity.
Qed.

Theorem container_roundtrip_refuted : exists o e v ao s s',
  documented_occ o = true /\ documented_etype e = true /\ cddl_admits o e v ao s = true /\
  roundtrip (field_desc o KBare e v) s = Some s' /\ s' <> s.
Proof.
  exists OOpt, ENullR, VScalar, ONone, SNull, SAbsent. repeat split; try reflexivity. discriminate.
Qed.

(* whatever is written back is again admitted by the schema (also in the excluded cell) *)
Theorem container_revalidates : forall o k e v ao s s',
  named k = true -> documented_occ o = true -> documented_etype e = true ->
  cddl_admits o e v ao s = true ->
  roundtrip (field_desc o k e v) s = Some s' -> cddl_admits o e v ao s' = true.
Proof.
  intros o k e v ao s s' Hk Ho He Ha Hr. rewrite (roundtrip_documented o k e v ao s Hk Ho He Ha) in Hr.
  destruct (optional_nullable_null o e s) eqn:X; inversion Hr; subst s'; [|exact Ha].
  destruct o; try discriminate. reflexivity.
Qed.

(* the decision itself, for named members: `?` gives Option<..> with skip_serializing_if ... *)
Theorem container_optional_is_option : forall k e v,
  named k = true ->
  written_type (field_desc OOpt k e v) = TOption (entry_type e v) /\ skips_none (field_desc OOpt k e v) = true.
Proof. intros k e v Hk. destruct k; try discriminate; split; reflexivity. Qed.

(* ... and `*`, `+`, n*m with m > 1 give a Vec<..>, whatever the key form (bareword or text) *)
Theorem container_star_is_vec : forall o k e v,
  named k = true -> is_vec_occ o = true -> fd_type (field_desc o k e v) = TVec (entry_type e v).
Proof. intros o k e v Hk Hv. destruct k; try discriminate; cbn [field_desc fd_type]; rewrite Hv; reflexivity. Qed.

(* single-entry arrays become Vec<T> independently of the occurrence; Vec admits every length *)
Theorem array_vec_admits_all : forall e n,
  documented_etype e = true -> de_val (TVec (entry_type e VScalar)) (SMany n) = Some (RMany n).
Proof. intros e n H. destruct e; try discriminate; cbn; destruct (n =? 0); reflexivity. Qed.
