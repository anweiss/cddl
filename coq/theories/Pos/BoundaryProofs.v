(* Generic lemmas for the character-boundary theorem of Pos/ErrRangeProofs.v.  The only facts about UTF-8 that
   are needed: a continuation byte never follows an ASCII byte (cont_ok) and a text does not begin with a
   continuation byte; every valid UTF-8 text satisfies both (utf8_valid_fuel_cont_ok). *)
From Coq Require Import ZifyBool.
From Cddl Require Import Base.Bytes Base.Lists Base.Utf8 Pos.Span Pos.SpanProofs Pos.ErrRange.
Open Scope N_scope.

Lemma tok_char_ascii : forall b, tok_char b = true -> b < 128.
Proof. unfold tok_char, is_alnum. intros. lia. Qed.
Lemma tok_first_char : forall b, tok_first b = true -> tok_char b = true.
Proof. unfold tok_first, tok_char, is_alnum. intros. lia. Qed.
Lemma skipped_ascii : forall b, skipped b = true -> b < 128.
Proof. unfold skipped, is_ascii_ws. intros. lia. Qed.

Lemma take_drop_while : forall A (p : A -> bool) l, take_while p l ++ drop_while p l = l.
Proof.
  induction l as [| x l IH]; [reflexivity |]. cbn [take_while drop_while].
  destruct (p x); [cbn [app]; rewrite IH; reflexivity | reflexivity].
Qed.
Lemma lenN_take_drop_while : forall A (p : A -> bool) l, lenN (take_while p l) + lenN (drop_while p l) = lenN l.
Proof. intros. rewrite <- lenN_app, take_drop_while. reflexivity. Qed.
Lemma take_while_all : forall A (p : A -> bool) l x, In x (take_while p l) -> p x = true.
Proof.
  induction l as [| y l IH]; intros x H; [destruct H |]. cbn [take_while] in H.
  destruct (p y) eqn:E; [| destruct H]. destruct H as [<- | H]; auto.
Qed.
Lemma drop_while_head : forall A (p : A -> bool) l x r, drop_while p l = x :: r -> p x = false.
Proof.
  induction l as [| y l IH]; intros x r H; [discriminate |]. cbn [drop_while] in H.
  destruct (p y) eqn:E; [apply (IH x r H) |]. injection H as <- _. exact E.
Qed.

(* an offset is a boundary iff what follows it begins a character or is empty (char_boundary_app) *)
Definition starts_char (l : list N) : bool := match l with [] => true | y :: _ => negb (is_cont y) end.
Lemma starts_char_lead : forall b r, b < 128 \/ 192 <= b -> starts_char (b :: r) = true.
Proof. intros b r H. cbn [starts_char]. unfold is_cont. lia. Qed.

Lemma char_boundary_app : forall a t, char_boundary (a ++ t) (lenN a) = starts_char t.
Proof.
  intros a t. unfold char_boundary. rewrite skipnN_app_len. destruct t; [| reflexivity].
  rewrite app_nil_r. apply N.eqb_refl.
Qed.

Lemma starts_char_drop_cont : forall l, starts_char (drop_while is_cont l) = true.
Proof.
  intros l. destruct (drop_while is_cont l) as [| y r] eqn:D; [reflexivity |].
  cbn [starts_char]. rewrite (drop_while_head _ _ _ _ _ D). reflexivity.
Qed.

Lemma starts_char_run : forall (p : N -> bool) l t, (forall x, p x = true -> x < 128) ->
  starts_char t = true -> starts_char (rev (take_while p l) ++ t) = true.
Proof.
  intros p l t Hp Ht. destruct (rev (take_while p l)) as [| y r] eqn:E; [exact Ht |].
  apply starts_char_lead. left. apply Hp, (take_while_all _ p l), in_rev. rewrite E. left. reflexivity.
Qed.

Lemma boundary_after_run : forall (p : N -> bool) pre l,
  char_boundary (pre ++ l) (lenN pre + lenN (take_while p l)) = starts_char (drop_while p l).
Proof.
  intros p pre l. rewrite <- (take_drop_while _ p l) at 1. rewrite app_assoc, <- lenN_app. apply char_boundary_app.
Qed.

(* scanning backward over a run: rp is the prefix reversed, as the model reads it *)
Lemma boundary_before_run : forall (p : N -> bool) rp t,
  char_boundary (rev rp ++ t) (lenN (drop_while p rp)) = starts_char (rev (take_while p rp) ++ t).
Proof.
  intros p rp t. rewrite <- (take_drop_while _ p rp) at 1.
  rewrite rev_app_distr, <- app_assoc, <- lenN_rev. apply char_boundary_app.
Qed.

Lemma cont_ok_cons : forall x r, cont_ok (x :: r) = (starts_char r || (128 <=? x)) && cont_ok r.
Proof. intros x [| y r]; reflexivity. Qed.

Lemma cont_ok_app_r : forall a b, cont_ok (a ++ b) = true -> cont_ok b = true.
Proof.
  induction a as [| x a IH]; intros b H; [exact H |]. cbn [app] in H. rewrite cont_ok_cons in H.
  apply andb_prop in H as [_ H]. apply IH, H.
Qed.

Lemma starts_char_drop_ascii : forall (p : N -> bool) l, (forall x, p x = true -> x < 128) ->
  cont_ok l = true -> starts_char l = true -> starts_char (drop_while p l) = true.
Proof.
  intros p l Hp. induction l as [| x r IH]; intros Hc Hs; [reflexivity |].
  cbn [drop_while]. destruct (p x) eqn:Px; [| exact Hs].
  rewrite cont_ok_cons in Hc. apply andb_prop in Hc as [H1 H2]. apply Hp in Px. apply IH; [exact H2 | lia].
Qed.

Lemma cont_ok_hi : forall x r, 128 <= x -> cont_ok r = true -> cont_ok (x :: r) = true.
Proof. intros x r Hx Hr. apply N.leb_le in Hx. rewrite cont_ok_cons, Hx, Hr, orb_true_r. reflexivity. Qed.

Lemma cont_ge_128 : forall b, cont b = true -> 128 <= b.
Proof. unfold cont. intros. lia. Qed.
(* the second byte of a three- or four-byte sequence, whose range depends on the lead byte *)
Lemma second_byte_ge_128 : forall (c1 c2 : bool) lo hi1 hi2 b, 128 <= lo ->
  (if c1 then (lo <=? b) && (b <=? hi1) else if c2 then (128 <=? b) && (b <=? hi2) else cont b) = true -> 128 <= b.
Proof. unfold cont. intros [|] [|]; lia. Qed.

(* every byte of a multi-byte sequence is at least 128 *)
Lemma utf8_valid_fuel_cont_ok : forall f bs, utf8_valid_fuel f bs = true ->
  cont_ok bs = true /\ starts_char bs = true.
Proof.
  induction f as [| f IH]; intros bs H; [discriminate |].
  cbn [utf8_valid_fuel] in H. destruct bs as [| b0 r]; [split; reflexivity |].
  destruct (N.ltb_spec b0 128) as [A | A].
  { destruct (IH r H) as [C Hd]. rewrite cont_ok_cons, C, Hd. split; [reflexivity | apply starts_char_lead; auto]. }
  enough (192 <= b0 /\ cont_ok r = true) as [B C].
  { split; [apply cont_ok_hi; assumption | apply starts_char_lead; right; exact B]. }
  destruct ((194 <=? b0) && (b0 <=? 223)) eqn:B2.
  { split; [lia |]. destruct r as [| b1 r']; [discriminate |]. apply andb_prop in H as [H1 H2].
    apply cont_ok_hi; [apply cont_ge_128, H1 | apply IH, H2]. }
  destruct ((224 <=? b0) && (b0 <=? 239)) eqn:B3.
  { split; [lia |]. destruct r as [| b1 [| b2 r']]; try discriminate. rewrite !andb_true_iff in H. destruct H as ((H1 & H2) & H3).
    apply cont_ok_hi; [apply (second_byte_ge_128 _ _ 160 _ _ _ ltac:(discriminate) H1) |].
    apply cont_ok_hi; [apply cont_ge_128, H2 | apply IH, H3]. }
  destruct ((240 <=? b0) && (b0 <=? 244)) eqn:B4; [split; [lia |] | discriminate].
  destruct r as [| b1 [| b2 [| b3 r']]]; try discriminate. rewrite !andb_true_iff in H. destruct H as (((H1 & H2) & H3) & H4).
  apply cont_ok_hi; [apply (second_byte_ge_128 _ _ 144 _ _ _ ltac:(discriminate) H1) |].
  apply cont_ok_hi; [apply cont_ge_128, H2 |]. apply cont_ok_hi; [apply cont_ge_128, H3 | apply IH, H4].
Qed.

Lemma utf8_valid_cont_ok : forall bs, utf8_valid bs = true -> cont_ok bs = true.
Proof. intros bs H. apply (utf8_valid_fuel_cont_ok _ bs H). Qed.
