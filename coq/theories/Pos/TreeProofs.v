(* Proofs about pair trees (Pos/Tree.v): when a queue with non-decreasing positions reads as a forest (its Start / End
   tokens match up), the forest has nested spans, ordered non-overlapping siblings and spans inside the input; the
   recursive-descent matcher only produces queues that do read as one. *)
From Coq Require Import ZifyBool.
From Cddl Require Import Base.Bytes Pos.Tree.
Open Scope N_scope.

(* the shape of parse_forest's recursion *)
Lemma forest_ind : forall P : list tree -> Prop, P [] ->
  (forall s e kids r, P kids -> P r -> P (Node s e kids :: r)) -> forall l, P l.
Proof.
  intros P H0 H1.
  assert (F : forall t r, P r -> P (t :: r)).
  { fix F 1. intros [s e kids] r Hr. apply H1; [| exact Hr].
    induction kids as [| k l IHl]; [exact H0 | apply F, IHl]. }
  induction l as [| t r IH]; [exact H0 | apply F, IH].
Qed.

Lemma flatten_node : forall s e kids, flatten (Node s e kids) = EStart s :: flatten_forest kids ++ [EEnd e].
Proof.
  intros. cbn [flatten]. f_equal.
Qed.
Lemma flatten_forest_cons : forall s e kids r,
  flatten_forest (Node s e kids :: r) = EStart s :: flatten_forest kids ++ EEnd e :: flatten_forest r.
Proof.
  intros. cbn [flatten_forest]. rewrite flatten_node. cbn [app]. rewrite <- app_assoc. reflexivity.
Qed.
Lemma flatten_forest_app : forall a b, flatten_forest (a ++ b) = flatten_forest a ++ flatten_forest b.
Proof.
  induction a as [| t a IH]; intros b; [reflexivity |]. cbn [app flatten_forest]. rewrite IH. apply app_assoc.
Qed.

Lemma parse_forest_flatten : forall f evs ts rest,
  parse_forest f evs = Some (ts, rest) -> evs = flatten_forest ts ++ rest.
Proof.
  induction f as [| f IH]; intros evs ts rest H; [discriminate |].
  cbn [parse_forest] in H. destruct evs as [| [s | e0] r].
  - injection H as <- <-. reflexivity.
  - destruct (parse_forest f r) as [[kids [| [s1 | e] r']] |] eqn:P1; try discriminate.
    destruct (parse_forest f r') as [[sibs rest'] |] eqn:P2; try discriminate.
    injection H as <- <-. apply IH in P1. apply IH in P2. subst r r'.
    rewrite flatten_forest_cons. cbn [app]. rewrite <- app_assoc. reflexivity.
  - injection H as <- <-. reflexivity.
Qed.

(* the rest is one at which parse_forest stops: it does not begin with a Start *)
Lemma parse_flatten_forest : forall ts rest f, match rest with EStart _ :: _ => False | _ => True end ->
  (length (flatten_forest ts) < f)%nat -> parse_forest f (flatten_forest ts ++ rest) = Some (ts, rest).
Proof.
  induction ts as [| s e kids r IHk IHr] using forest_ind; intros rest f Hc Hf; (destruct f as [| f]; [lia |]).
  - destruct rest as [| [s | e] r]; [reflexivity | destruct Hc | reflexivity].
  - rewrite flatten_forest_cons in *. cbn [app length] in Hf. rewrite app_length in Hf. cbn [length] in Hf.
    cbn [app]. rewrite <- app_assoc. cbn [app parse_forest].
    rewrite IHk; [rewrite IHr; [reflexivity | exact Hc | lia] | exact I | lia].
Qed.

Lemma tree_of_events_flatten : forall ts, tree_of_events (flatten_forest ts) = Some ts.
Proof.
  intros ts. unfold tree_of_events. rewrite <- (app_nil_r (flatten_forest ts)) at 2.
  rewrite parse_flatten_forest; [reflexivity | exact I | lia].
Qed.

(* a queue bounded by hi can be followed by an End at hi *)
Lemma nondecr_snoc : forall a lo hi, nondecr lo a = true -> bounded hi a = true -> lo <= hi ->
  nondecr lo (a ++ [EEnd hi]) = true.
Proof.
  induction a as [| x a IH]; intros lo hi Hn Hb L; cbn [app nondecr ev_pos] in *; [lia |].
  apply andb_prop in Hn as [H1 H2], Hb as [H3 H4]. rewrite H1, IH; [reflexivity | assumption | assumption | lia].
Qed.

(* a forest read up to the End that closes it, as parse_forest reads the children of a pair: positions do not
   decrease, so that End bounds the forest *)
Lemma flatten_forest_wf : forall ts lo hi rest, nondecr lo (flatten_forest ts ++ EEnd hi :: rest) = true ->
  forest_wf lo hi ts /\ lo <= hi /\ nondecr hi rest = true.
Proof.
  induction ts as [| s e kids r IHk IHr] using forest_ind; intros lo hi rest H.
  - cbn [flatten_forest app nondecr ev_pos] in H. apply andb_prop in H as [L H].
    repeat split; [constructor | lia | exact H].
  - rewrite flatten_forest_cons in H. cbn [app] in H. rewrite <- app_assoc in H. cbn [app nondecr ev_pos] in H.
    apply andb_prop in H as [Hs H]. apply IHk in H as (Wk & Hse & H). apply IHr in H as (Wr & Heh & H).
    repeat split; [constructor; [constructor; [lia | assumption ..] | exact Wr] | lia | exact H].
Qed.

Theorem tree_of_events_wf : forall len evs ts,
  tree_of_events evs = Some ts -> nondecr 0 evs = true -> bounded len evs = true ->
  flatten_forest ts = evs /\ forest_wf 0 len ts.
Proof.
  intros len evs ts H Hn Hb. unfold tree_of_events in H.
  destruct (parse_forest (S (length evs)) evs) as [[ts' [| x r]] |] eqn:P; try discriminate.
  injection H as <-. apply parse_forest_flatten in P. rewrite app_nil_r in P. subst evs.
  split; [reflexivity | apply (flatten_forest_wf ts' 0 len []), nondecr_snoc; [assumption | assumption | lia]].
Qed.

Theorem events_wfb_sound : forall len evs, events_wfb len evs = true ->
  exists ts, tree_of_events evs = Some ts /\ flatten_forest ts = evs /\ forest_wf 0 len ts.
Proof.
  intros len evs H. unfold events_wfb in H. destruct (tree_of_events evs) as [ts |] eqn:T; [| discriminate].
  apply andb_prop in H as [Hn Hb]. exists ts. split; [reflexivity |]. apply (tree_of_events_wf len evs ts T Hn Hb).
Qed.

Lemma forest_wf_app : forall lo p1 ta, forest_wf lo p1 ta -> forall p2 tb, lo <= p1 -> p1 <= p2 ->
  forest_wf p1 p2 tb -> forest_wf lo p2 (ta ++ tb).
Proof.
  induction 1 as [lo p1 | lo p1 t ta Ht _ IH]; intros p2 tb L1 L2 Hb; cbn [app].
  - destruct Hb as [| p1 p2 t r Ht Hr]; [constructor |]. destruct Ht as [p1 p2 s e kids Hs Hse He Hk].
    constructor; [constructor; [lia | assumption ..] | exact Hr].
  - destruct Ht as [lo p1 s e kids Hs Hse He Hk]. cbn [tree_end] in IH.
    constructor; [constructor; [assumption | assumption | lia | assumption] | apply IH; [lia | assumption ..]].
Qed.

(* what a match from pos to p' leaves in the queue (Runs_qwf) *)
Definition qwf (pos p' : N) (evs : list event) : Prop :=
  pos <= p' /\ exists ts, flatten_forest ts = evs /\ forest_wf pos p' ts.

Lemma qwf_nil : forall pos p', pos <= p' -> qwf pos p' [].
Proof. intros pos p' H. split; [exact H | exists []; split; [reflexivity | constructor]]. Qed.

Lemma qwf_app : forall pos p1 p2 a b, qwf pos p1 a -> qwf p1 p2 b -> qwf pos p2 (a ++ b).
Proof.
  intros pos p1 p2 a b (L1 & ta & <- & Wa) (L2 & tb & <- & Wb). split; [lia |]. exists (ta ++ tb).
  split; [apply flatten_forest_app | apply (forest_wf_app pos p1); assumption].
Qed.

Lemma qwf_wrap : forall pos p1 evs, qwf pos p1 evs -> qwf pos p1 (EStart pos :: evs ++ [EEnd p1]).
Proof.
  intros pos p1 evs (L & ts & <- & W). split; [exact L |]. exists [Node pos p1 ts].
  split; [rewrite flatten_forest_cons; reflexivity |].
  constructor; [constructor; [lia | exact L | lia | exact W] | constructor].
Qed.

(* Runs g e s pos s' p' evs: e can match s from pos to p', leaving s' and having pushed evs.  The relation
   forgets the fuel, and also that an alternative or a repetition is only tried after what stands before it
   failed: the facts below do not depend on it. *)
Inductive Runs (g : N -> pexp) : pexp -> list N -> N -> list N -> N -> list event -> Prop :=
| R_empty : forall s pos, Runs g PEmpty s pos s pos []
| R_any : forall x r pos, Runs g PAny (x :: r) pos r (pos + 1) []
| R_range : forall lo hi x r pos, (lo <=? x) && (x <=? hi) = true -> Runs g (PRange lo hi) (x :: r) pos r (pos + 1) []
| R_seq : forall a b s pos s1 p1 ev1 s2 p2 ev2,
    Runs g a s pos s1 p1 ev1 -> Runs g b s1 p1 s2 p2 ev2 -> Runs g (PSeq a b) s pos s2 p2 (ev1 ++ ev2)
| R_alt_l : forall a b s pos s1 p1 ev1, Runs g a s pos s1 p1 ev1 -> Runs g (PAlt a b) s pos s1 p1 ev1
| R_alt_r : forall a b s pos s1 p1 ev1, Runs g b s pos s1 p1 ev1 -> Runs g (PAlt a b) s pos s1 p1 ev1
| R_star_stop : forall a s pos, Runs g (PStar a) s pos s pos []
| R_star_more : forall a s pos s1 p1 ev1 s2 p2 ev2,
    Runs g a s pos s1 p1 ev1 -> Runs g (PStar a) s1 p1 s2 p2 ev2 -> Runs g (PStar a) s pos s2 p2 (ev1 ++ ev2)
| R_not : forall a s pos, Runs g (PNot a) s pos s pos []
| R_rule : forall id a s pos s1 p1 ev1,
    Runs g a s pos s1 p1 ev1 -> Runs g (PRule id a) s pos s1 p1 (EStart pos :: ev1 ++ [EEnd p1])
| R_call : forall id s pos s1 p1 ev1, Runs g (g id) s pos s1 p1 ev1 -> Runs g (PCall id) s pos s1 p1 ev1.

Lemma run_Runs : forall f g e s pos s' p' evs,
  run f g e s pos = Some (Some (s', p', evs)) -> Runs g e s pos s' p' evs.
Proof.
  induction f as [| f IH]; intros g e s pos s' p' evs H; [discriminate |].
  cbn [run] in H. destruct e as [| | lo hi | a b | a b | a | a | id a | id].
  - injection H as <- <- <-. constructor.
  - destruct s as [| x r]; [discriminate |]. injection H as <- <- <-. constructor.
  - destruct s as [| x r]; [discriminate |]. destruct ((lo <=? x) && (x <=? hi)) eqn:E; [| discriminate].
    injection H as <- <- <-. constructor. exact E.
  - destruct (run f g a s pos) as [[[[s1 p1] ev1] |] |] eqn:R1; try discriminate.
    destruct (run f g b s1 p1) as [[[[s2 p2] ev2] |] |] eqn:R2; try discriminate.
    injection H as <- <- <-. apply (R_seq g a b s pos s1 p1 ev1); auto.
  - destruct (run f g a s pos) as [[r1 |] |] eqn:R1; try discriminate.
    + injection H as ->. apply R_alt_l. auto.
    + apply R_alt_r. auto.
  - destruct (run f g a s pos) as [[[[s1 p1] ev1] |] |] eqn:R1; try discriminate.
    + apply IH in R1. (* one more round; when it is the last, nothing follows it *)
      assert (Last : Runs g (PStar a) s pos s1 p1 ev1).
      { rewrite <- (app_nil_r ev1). apply (R_star_more g a s pos s1 p1 ev1); [exact R1 | constructor]. }
      destruct (p1 =? pos).
      * injection H as <- <- <-. exact Last.
      * destruct (run f g (PStar a) s1 p1) as [[[[s2 p2] ev2] |] |] eqn:R2; try discriminate.
        -- injection H as <- <- <-. apply (R_star_more g a s pos s1 p1 ev1); auto.
        -- injection H as <- <- <-. exact Last.
    + injection H as <- <- <-. constructor.
  - destruct (run f g a s pos) as [[r1 |] |]; try discriminate. injection H as <- <- <-. constructor.
  - destruct (run f g a s pos) as [[[[s1 p1] ev1] |] |] eqn:R1; try discriminate.
    injection H as <- <- <-. constructor. auto.
  - constructor. auto.
Qed.

Lemma Runs_consumes : forall g e s pos s' p' evs, Runs g e s pos s' p' evs -> p' + lenN s' = pos + lenN s.
Proof. induction 1; unfold lenN in *; cbn [length]; lia. Qed.

Lemma Runs_qwf : forall g e s pos s' p' evs, Runs g e s pos s' p' evs -> qwf pos p' evs.
Proof. induction 1; eauto using qwf_app, qwf_wrap; apply qwf_nil; lia. Qed.

Lemma qwf_forest : forall pos p' hi evs, qwf pos p' evs -> p' <= hi ->
  exists ts, tree_of_events evs = Some ts /\ flatten_forest ts = evs /\ forest_wf pos hi ts.
Proof.
  intros pos p' hi evs (L & ts & <- & W) Hhi. exists ts.
  split; [apply tree_of_events_flatten | split; [reflexivity |]].
  rewrite <- (app_nil_r ts). apply (forest_wf_app pos p'); [exact W | exact L | exact Hhi | constructor].
Qed.

Theorem run_tree_wf : forall f g e s s' p' evs,
  run f g e s 0 = Some (Some (s', p', evs)) ->
  exists ts, tree_of_events evs = Some ts /\ flatten_forest ts = evs /\ forest_wf 0 (lenN s) ts.
Proof.
  intros f g e s s' p' evs H. apply run_Runs in H.
  apply (qwf_forest 0 p'); [apply (Runs_qwf _ _ _ _ _ _ _ H) | pose proof (Runs_consumes _ _ _ _ _ _ _ H); lia].
Qed.

Lemma Runs_seq : forall g a b s pos s' p' evs, Runs g (PSeq a b) s pos s' p' evs ->
  exists s1 p1 ev1 ev2, Runs g a s pos s1 p1 ev1 /\ Runs g b s1 p1 s' p' ev2 /\ evs = ev1 ++ ev2.
Proof. inversion 1. eauto 8. Qed.
Lemma Runs_alt : forall g a b s pos s' p' evs, Runs g (PAlt a b) s pos s' p' evs ->
  Runs g a s pos s' p' evs \/ Runs g b s pos s' p' evs.
Proof. inversion 1; auto. Qed.
Lemma Runs_rule : forall g id a s pos s' p' evs, Runs g (PRule id a) s pos s' p' evs ->
  exists ev, Runs g a s pos s' p' ev /\ evs = EStart pos :: ev ++ [EEnd p'].
Proof. inversion 1. eauto. Qed.

Lemma Runs_no_rule : forall g e s pos s' p' evs, Runs g e s pos s' p' evs -> no_rule e = true -> evs = [].
Proof.
  induction 1; cbn [no_rule]; intros Hn; try reflexivity; try discriminate.
  - apply andb_prop in Hn as [Ha Hb]. rewrite IHRuns1, IHRuns2; auto.
  - apply andb_prop in Hn as [Ha Hb]. auto.
  - apply andb_prop in Hn as [Ha Hb]. auto.
  - rewrite IHRuns1, IHRuns2; auto.
Qed.

(* the typename pair is tiled exactly by its children: either  socket_type [pos,pos+1) id [pos+1,end)  or
   id [pos,end) ; nothing between the socket and the name, nothing after the name *)
Theorem typename_span_exact : forall f g idbody s pos s' p' evs,
  no_rule idbody = true ->
  run f g (typename_of idbody) s pos = Some (Some (s', p', evs)) ->
  evs = [EStart pos; EStart pos; EEnd (pos + 1); EStart (pos + 1); EEnd p'; EEnd p']
  \/ evs = [EStart pos; EStart pos; EEnd p'; EEnd p'].
Proof.
  intros f g idbody s pos s' p' evs Hn H.
  apply run_Runs, Runs_rule in H as (ev0 & H & ->). apply Runs_seq in H as (s1 & p1 & ev1 & ev2 & Socket & Id & ->).
  apply Runs_rule in Id as (ev3 & Body & ->). rewrite (Runs_no_rule _ _ _ _ _ _ _ Body Hn).
  apply Runs_alt in Socket as [Dollar | Nothing].
  - apply Runs_rule in Dollar as (ev4 & Byte & ->). inversion Byte. left. reflexivity.
  - inversion Nothing. right. reflexivity.
Qed.

(* `$x` is a typename with span (0,2); `$ x` is not a typename *)
Lemma typename_examples :
  run 20 (fun _ => PEmpty) (typename_of lower_id) [36; 120] 0
  = Some (Some ([], 2, [EStart 0; EStart 0; EEnd 1; EStart 1; EEnd 2; EEnd 2]))
  /\ run 20 (fun _ => PEmpty) (typename_of lower_id) [36; 32; 120] 0 = Some None.
Proof. vm_compute. auto. Qed.
