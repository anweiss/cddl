(* Proofs about the error-position model Pos/ErrRange.v: bounds, order, line/column of the index, and the
   full character-boundary statement. *)
From Coq Require Import ZifyBool.
From Cddl Require Import Base.Bytes Base.Lists Base.Utf8 Pos.Span Pos.SpanProofs Pos.ErrRange Pos.BoundaryProofs.
Open Scope N_scope.

(* the second half of compute_error_range: step back from index over whitespace and ';' to the nearest other byte and
   take the token (or the character) it belongs to; (index, index) when there is none *)
Definition back_range (index : N) (bs : list N) : N * N :=
  match drop_while skipped (rev (firstnN index bs)) with
  | [] => (index, index)
  | (_ :: _) as back => (scan_token_start bs (lenN back - 1), lenN back - 1 + 1)
  end.

Lemma compute_error_range_cases : forall index bs,
  (exists ch t, skipnN index bs = ch :: t /\ index < scan_token_end bs index
      /\ compute_error_range index bs = (index, scan_token_end bs index))
  \/ compute_error_range index bs = back_range index bs.
Proof.
  intros index bs. unfold compute_error_range. fold (back_range index bs).
  destruct (skipnN index bs) as [| ch t] eqn:S; [right; reflexivity |].
  destruct (skipped ch); cbn [negb]; [right; reflexivity |].
  destruct (N.ltb_spec index (scan_token_end bs index)) as [Lt | Ge]; [| right; reflexivity].
  left. exists ch, t. auto.
Qed.

Lemma scan_token_start_le : forall bs pos, scan_token_start bs pos <= pos.
Proof.
  intros. unfold scan_token_start. destruct (skipnN pos bs) as [| ch t]; [lia |].
  destruct (tok_char ch); [lia |]. destruct (is_cont ch); [| lia].
  destruct (lenN (take_while is_cont (rev (firstnN pos bs))) <? pos); lia.
Qed.

Lemma scan_token_end_le_len : forall bs index, scan_token_end bs index <= N.max index (lenN bs).
Proof.
  intros bs index. unfold scan_token_end. pose proof (lenN_skipnN N bs index) as L.
  destruct (skipnN index bs) as [| first t] eqn:S; [lia |]. rewrite lenN_cons in L.
  destruct (tok_first first).
  - pose proof (lenN_take_drop_while N tok_char (first :: t)) as H. rewrite lenN_cons in H. lia.
  - pose proof (lenN_take_drop_while N is_cont t) as H. lia.
Qed.

Lemma back_range_bounds : forall index bs,
  fst (back_range index bs) <= snd (back_range index bs) /\ snd (back_range index bs) <= index.
Proof.
  intros index bs. unfold back_range.
  pose proof (lenN_take_drop_while N skipped (rev (firstnN index bs))) as L.
  rewrite lenN_rev, lenN_firstnN in L.
  destruct (drop_while skipped (rev (firstnN index bs))) as [| x back]; cbn [fst snd].
  - lia.
  - rewrite lenN_cons in *. pose proof (scan_token_start_le bs (lenN back + 1 - 1)). lia.
Qed.

Lemma err_range_bounds : forall bs index,
  fst (compute_error_range index bs) <= snd (compute_error_range index bs)
  /\ fst (compute_error_range index bs) <= index
  /\ snd (compute_error_range index bs) <= N.max index (lenN bs).
Proof.
  intros bs index.
  destruct (compute_error_range_cases index bs) as [(ch & t & S & Lt & E) | E]; rewrite E.
  - cbn [fst snd]. pose proof (scan_token_end_le_len bs index). lia.
  - pose proof (back_range_bounds index bs). lia.
Qed.

Theorem err_range_in_bounds : forall bs index, index <= lenN bs ->
  fst (compute_error_range index bs) <= snd (compute_error_range index bs)
  /\ snd (compute_error_range index bs) <= lenN bs
  /\ fst (compute_error_range index bs) <= index.
Proof. intros bs index Hi. pose proof (err_range_bounds bs index). lia. Qed.

Theorem err_range_non_inverted : forall bs index,
  fst (compute_error_range index bs) <= snd (compute_error_range index bs)
  /\ fst (compute_error_range index bs) <= index.
Proof. intros bs index. pose proof (err_range_bounds bs index). lia. Qed.

Theorem err_linecol_of_index : forall bs index,
  let p := convert_pest_error bs index in
  p_range p = compute_error_range index bs
  /\ p_index p = fst (p_range p)
  /\ p_line p = 1 + count_nl (firstnN (p_index p) bs)
  /\ p_column p = 1 + nchars (line_tail (firstnN (p_index p) bs)).
Proof.
  intros bs index. unfold convert_pest_error. cbn [p_range p_index p_line p_column].
  split; [reflexivity |]. split; [reflexivity |].
  pose proof (err_range_non_inverted bs index) as (_ & Hle).
  destruct (N.ltb_spec (fst (compute_error_range index bs)) index) as [Lt | Ge].
  - rewrite linecol_loop_spec. cbn [fst snd]. split; lia.
  - assert (E : fst (compute_error_range index bs) = index) by lia. rewrite E.
    rewrite pest_line_col_spec. cbn [fst snd]. split; reflexivity.
Qed.

(* the two scans at an offset where a byte stands: the text is pre ++ x :: rest and the offset is lenN pre;
   the backward scan reads the prefix reversed, so the prefix is given as rev rp *)
Lemma scan_token_end_at : forall pre x rest, scan_token_end (pre ++ x :: rest) (lenN pre) =
  if tok_first x then lenN pre + lenN (take_while tok_char (x :: rest))
  else lenN (pre ++ [x]) + lenN (take_while is_cont rest).
Proof. intros. unfold scan_token_end. rewrite skipnN_app_len, lenN_app. reflexivity. Qed.

Lemma scan_token_start_at : forall rp x rest, scan_token_start (rev rp ++ x :: rest) (lenN rp) =
  if tok_char x then lenN rp - lenN (take_while tok_char rp)
  else if is_cont x then
    if lenN (take_while is_cont rp) <? lenN rp then lenN rp - (lenN (take_while is_cont rp) + 1) else 0
  else lenN rp.
Proof.
  intros. unfold scan_token_start. rewrite <- (lenN_rev rp), skipnN_app_len, firstnN_app_len, rev_involutive.
  reflexivity.
Qed.

(* forward: over a run of ASCII token bytes, or over one character and its continuation bytes *)
Lemma scan_token_end_boundary : forall pre x rest, cont_ok (x :: rest) = true ->
  char_boundary (pre ++ x :: rest) (scan_token_end (pre ++ x :: rest) (lenN pre)) = true.
Proof.
  intros pre x rest Hc. rewrite scan_token_end_at. destruct (tok_first x) eqn:TF.
  - rewrite boundary_after_run. apply (starts_char_drop_ascii _ _ tok_char_ascii Hc).
    apply starts_char_lead. left. apply tok_char_ascii, tok_first_char, TF.
  - change (pre ++ x :: rest) with (pre ++ [x] ++ rest). rewrite app_assoc, boundary_after_run.
    apply starts_char_drop_cont.
Qed.

(* backward: over a run of ASCII token bytes, or over continuation bytes to their lead byte; a text that
   consists of continuation bytes up to here does not start a character *)
Lemma scan_token_start_boundary : forall rp x rest, starts_char (rev rp ++ x :: rest) = true ->
  char_boundary (rev rp ++ x :: rest) (scan_token_start (rev rp ++ x :: rest) (lenN rp)) = true.
Proof.
  intros rp x rest Hhead. rewrite scan_token_start_at. destruct (tok_char x) eqn:TC.
  - pose proof (lenN_take_drop_while N tok_char rp) as L.
    replace (lenN rp - lenN (take_while tok_char rp)) with (lenN (drop_while tok_char rp)) by lia.
    rewrite boundary_before_run. apply (starts_char_run _ _ _ tok_char_ascii).
    apply starts_char_lead. left. apply tok_char_ascii, TC.
  - destruct (is_cont x) eqn:CX.
    + pose proof (lenN_take_drop_while N is_cont rp) as L.
      destruct (N.ltb_spec (lenN (take_while is_cont rp)) (lenN rp)) as [Hk | Hk].
      * destruct (drop_while is_cont rp) as [| z dw] eqn:DW; [rewrite lenN_nil in L; lia |].
        rewrite lenN_cons in L.
        replace (lenN rp - (lenN (take_while is_cont rp) + 1)) with (lenN dw) by lia.
        rewrite <- (take_drop_while _ is_cont rp) at 1. rewrite DW, rev_app_distr. cbn [rev].
        rewrite <- !app_assoc, <- lenN_rev, char_boundary_app. cbn [app starts_char].
        rewrite (drop_while_head _ _ _ _ _ DW). reflexivity.
      * rewrite <- Hhead. apply (char_boundary_app []).
    + rewrite <- lenN_rev, char_boundary_app. cbn [starts_char]. rewrite CX. reflexivity.
Qed.

(* the range found by going back from the offset between P and R, over the skipped bytes to the byte x;
   the proof takes the prefix reversed (rp), as the model reads it *)
Lemma back_range_boundary : forall P R, starts_char (P ++ R) = true -> starts_char R = true ->
  char_boundary (P ++ R) (fst (back_range (lenN P) (P ++ R))) = true
  /\ char_boundary (P ++ R) (snd (back_range (lenN P) (P ++ R))) = true.
Proof.
  intros P R. rewrite <- (rev_involutive P). generalize (rev P) as rp. intros rp Hhead HR.
  unfold back_range. rewrite firstnN_app_len, rev_involutive.
  pose proof (take_drop_while _ skipped rp) as TD.
  destruct (drop_while skipped rp) as [| x back] eqn:D; cbn [fst snd].
  - rewrite char_boundary_app. auto.
  - rewrite lenN_cons, N.add_sub. split.
    + rewrite <- TD, rev_app_distr in Hhead |- *. cbn [rev] in *. rewrite <- !app_assoc in *.
      apply scan_token_start_boundary, Hhead.
    + rewrite <- (lenN_cons x), <- D, boundary_before_run. apply (starts_char_run _ _ _ skipped_ascii HR).
Qed.

(* the text is split at the offset: the forward range starts there and ends after a run of ASCII bytes or one whole
   character of what follows, the backward range lies in what precedes (back_range_boundary) *)
Theorem err_range_on_char_boundary : forall bs index,
  utf8_valid bs = true -> index <= lenN bs -> char_boundary bs index = true ->
  char_boundary bs (fst (compute_error_range index bs)) = true
  /\ char_boundary bs (snd (compute_error_range index bs)) = true.
Proof.
  intros bs index Hv Hi Hb. destruct (utf8_valid_fuel_cont_ok _ bs Hv) as [Hc Hhead].
  destruct (split_at _ bs index Hi) as (P & R & -> & <-). rewrite char_boundary_app in Hb.
  destruct (compute_error_range_cases (lenN P) (P ++ R)) as [(ch & t & S & Lt & E) | E]; rewrite E.
  - cbn [fst snd]. rewrite char_boundary_app. split; [exact Hb |]. rewrite skipnN_app_len in S. subst R.
    apply scan_token_end_boundary, (cont_ok_app_r P), Hc.
  - apply back_range_boundary; assumption.
Qed.

(* `a = é` at 4 and `a = ; é` LF at 9: the two-byte character is inside the range as a whole *)
Example err_examples :
  compute_error_range 4 [97; 32; 61; 32; 195; 169] = (4, 6)
  /\ compute_error_range 9 [97; 32; 61; 32; 59; 32; 195; 169; 10] = (6, 8)
  /\ convert_pest_error [97; 32; 61; 32; 59; 32; 195; 169; 10] 9 = mkPos 1 7 (6, 8) 6.
Proof. vm_compute. auto. Qed.
