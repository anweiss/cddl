(* Proofs about the span / position arithmetic of Pos/Span.v: the three position computations of the bridge and
   pest's own line_col are one function of the offset, line = 1 + line feeds before it, column = 1 + characters
   after the last of them.  The loops are read from the end of the prefix (rev_ind), since line_tail is. *)
From Coq Require Import ZifyBool.
From Cddl Require Import Base.Lists.
From Cddl Require Import Base.Bytes Pos.Span.
Open Scope N_scope.

Lemma firstnN_0 : forall A (l : list A), firstnN 0 l = [].
Proof. destruct l; reflexivity. Qed.
Lemma skipnN_0 : forall A (l : list A), skipnN 0 l = l.
Proof. destruct l; reflexivity. Qed.

Lemma firstnN_cons : forall A n (x : A) l, 0 < n -> firstnN n (x :: l) = x :: firstnN (n - 1) l.
Proof.
  intros A n x l Hn. cbn [firstnN]. destruct (N.eqb_spec n 0) as [E | E]; [lia |].
  rewrite N.sub_1_r. reflexivity.
Qed.
Lemma skipnN_cons : forall A n (x : A) l, 0 < n -> skipnN n (x :: l) = skipnN (n - 1) l.
Proof.
  intros A n x l Hn. cbn [skipnN]. destruct (N.eqb_spec n 0) as [E | E]; [lia |].
  rewrite N.sub_1_r. reflexivity.
Qed.

Lemma firstnN_skipnN : forall A (l : list A) n, firstnN n l ++ skipnN n l = l.
Proof.
  induction l as [| x l IH]; intros n; [reflexivity |].
  cbn [firstnN skipnN]. destruct (n =? 0); [reflexivity |]. cbn [app]. rewrite IH. reflexivity.
Qed.

Lemma lenN_firstnN : forall A (l : list A) n, lenN (firstnN n l) = N.min n (lenN l).
Proof.
  induction l as [| x l IH]; intros n.
  - cbn [firstnN]. rewrite lenN_nil. lia.
  - cbn [firstnN]. destruct (N.eqb_spec n 0) as [E | E].
    + subst. rewrite lenN_nil. lia.
    + rewrite !lenN_cons, IH. lia.
Qed.

Lemma lenN_skipnN : forall A (l : list A) n, lenN (skipnN n l) = lenN l - n.
Proof.
  intros A l n. pose proof (f_equal lenN (firstnN_skipnN A l n)) as E.
  rewrite lenN_app, lenN_firstnN in E. lia.
Qed.

Lemma split_at : forall A (l : list A) n, n <= lenN l -> exists a b, l = a ++ b /\ lenN a = n.
Proof.
  intros A l n H. exists (firstnN n l), (skipnN n l). rewrite firstnN_skipnN, lenN_firstnN. split; [reflexivity | lia].
Qed.

Lemma firstnN_skipnN_app : forall A (a b : list A), firstnN (lenN a) (a ++ b) = a /\ skipnN (lenN a) (a ++ b) = b.
Proof.
  induction a as [| x a IH]; intros b; [destruct b; split; reflexivity |].
  cbn [app firstnN skipnN]. rewrite lenN_cons. destruct (N.eqb_spec (lenN a + 1) 0) as [E | _]; [lia |].
  rewrite N.add_1_r, N.pred_succ. destruct (IH b) as [-> ->]. split; reflexivity.
Qed.
Lemma firstnN_app_len : forall A (a b : list A), firstnN (lenN a) (a ++ b) = a.
Proof. intros. apply firstnN_skipnN_app. Qed.
Lemma skipnN_app_len : forall A (a b : list A), skipnN (lenN a) (a ++ b) = b.
Proof. intros. apply firstnN_skipnN_app. Qed.

Lemma skipnN_app_le : forall A (a b : list A) n, n <= lenN a -> skipnN n (a ++ b) = skipnN n a ++ b.
Proof.
  intros A a b n H. destruct (split_at A a n H) as (a1 & a2 & -> & <-).
  rewrite <- app_assoc, !skipnN_app_len. reflexivity.
Qed.

Lemma is_cont_not_nl : forall b, is_cont b = true -> (b =? NL) = false.
Proof. unfold is_cont, NL. intros b H. lia. Qed.

Lemma count_nl_chars_eq : forall bs, count_nl_chars bs = count_nl bs.
Proof.
  induction bs as [| b r IH]; [reflexivity |]. cbn [count_nl_chars count_nl]. rewrite IH.
  destruct (is_cont b) eqn:C; cbn [negb andb].
  - rewrite (is_cont_not_nl b C). reflexivity.
  - reflexivity.
Qed.

Lemma count_nl_app : forall a b, count_nl (a ++ b) = count_nl a + count_nl b.
Proof. induction a as [| x a IH]; intros b; cbn [app count_nl]; [lia | rewrite IH; lia]. Qed.
Lemma nchars_app : forall a b, nchars (a ++ b) = nchars a + nchars b.
Proof. induction a as [| x a IH]; intros b; cbn [app nchars]; [lia | rewrite IH; lia]. Qed.

Lemma line_tail_snoc : forall a b,
  line_tail (a ++ [b]) = if b =? NL then [] else line_tail a ++ [b].
Proof.
  intros a b. unfold line_tail. rewrite rev_app_distr. cbn [rev app take_while].
  destruct (b =? NL); cbn [negb]; [reflexivity |]. cbn [rev]. reflexivity.
Qed.
Lemma line_tail_nil : line_tail [] = [].
Proof. reflexivity. Qed.

Lemma linecol_loop_app : forall a b l c,
  linecol_loop (a ++ b) l c = linecol_loop b (fst (linecol_loop a l c)) (snd (linecol_loop a l c)).
Proof.
  induction a as [| x a IH]; intros b l c; [reflexivity |].
  cbn [app linecol_loop]. destruct (is_cont x); [apply IH |]. destruct (x =? NL); apply IH.
Qed.

Lemma linecol_loop_spec : forall bs,
  linecol_loop bs 1 1 = (count_nl bs + 1, nchars (line_tail bs) + 1).
Proof.
  induction bs as [| b a IH] using rev_ind; [reflexivity |].
  rewrite linecol_loop_app, IH. cbn [fst snd linecol_loop].
  rewrite count_nl_app, line_tail_snoc. cbn [count_nl].
  destruct (is_cont b) eqn:C.
  - rewrite (is_cont_not_nl b C). rewrite nchars_app. cbn [nchars]. rewrite C. f_equal; lia.
  - destruct (b =? NL) eqn:E.
    + cbn [nchars]. f_equal; lia.
    + rewrite nchars_app. cbn [nchars]. rewrite C. f_equal; lia.
Qed.

(* pest looks one byte ahead after '\r', but whether or not a '\n' follows, counting the '\r' as a character and
   going on gives the same result: the '\n' resets the column anyway *)
Lemma pest_lc_loop_cr : forall r l c, pest_lc_loop (CR :: r) l c = pest_lc_loop r l (c + 1).
Proof.
  intros [| b2 r2] l c; [reflexivity |]. cbn [pest_lc_loop]. change (CR =? CR) with true. cbv iota.
  destruct (N.eqb_spec b2 NL) as [-> | _]; reflexivity.
Qed.

Lemma pest_lc_loop_eq : forall bs l c, pest_lc_loop bs l c = linecol_loop bs l c.
Proof.
  induction bs as [| b r IH]; intros l c; [reflexivity |].
  destruct (N.eqb_spec b CR) as [-> | Ecr]; [rewrite pest_lc_loop_cr; apply IH |].
  apply N.eqb_neq in Ecr. cbn [pest_lc_loop linecol_loop]. rewrite Ecr.
  destruct (is_cont b) eqn:C; [rewrite (is_cont_not_nl b C) |]; destruct (b =? NL); apply IH.
Qed.

Lemma rfind_nl_from_snoc : forall a b i acc,
  rfind_nl_from (a ++ [b]) i acc = if b =? NL then Some (i + lenN a) else rfind_nl_from a i acc.
Proof.
  induction a as [| x a IH]; intros b i acc.
  - cbn [app rfind_nl_from]. rewrite lenN_nil. destruct (b =? NL); [f_equal; lia | reflexivity].
  - cbn [app rfind_nl_from]. rewrite IH, lenN_cons. destruct (b =? NL); [f_equal; lia | reflexivity].
Qed.

(* the offset after the last line feed, as position_from_ast_span computes it, is where line_tail begins *)
Lemma rfind_nl_spec : forall p, let n := match rfind_nl p with Some i => i + 1 | None => 0 end in
  n <= lenN p /\ skipnN n p = line_tail p.
Proof.
  induction p as [| b a IH] using rev_ind; [split; [apply N.le_refl | reflexivity] |].
  unfold rfind_nl in *. cbv zeta in *. rewrite rfind_nl_from_snoc, line_tail_snoc, lenN_app.
  change (lenN [b]) with 1. destruct (b =? NL).
  - split; [lia |]. replace (0 + lenN a + 1) with (lenN (a ++ [b])) by (rewrite lenN_app; reflexivity).
    rewrite <- (app_nil_r (a ++ [b])) at 2. apply skipnN_app_len.
  - destruct IH as [Hn Hs]. split; [lia |]. rewrite skipnN_app_le, Hs by exact Hn. reflexivity.
Qed.

Theorem line_is_newlines_before : forall bs s e,
  pest_span_to_ast_span bs s e = (s, e, 1 + count_nl (firstnN s bs)).
Proof.
  intros. unfold pest_span_to_ast_span, ast_line. rewrite count_nl_chars_eq. f_equal. lia.
Qed.

Theorem column_is_chars_since_newline : forall bs s e,
  pest_span_to_position bs s e =
  mkPos (1 + count_nl (firstnN s bs)) (1 + nchars (line_tail (firstnN s bs))) (s, e) s.
Proof.
  intros. unfold pest_span_to_position. rewrite linecol_loop_spec. cbn [fst snd]. f_equal; lia.
Qed.

Theorem position_from_ast_span_agrees : forall bs s e,
  position_from_ast_span bs (pest_span_to_ast_span bs s e) = pest_span_to_position bs s e.
Proof.
  intros. rewrite column_is_chars_since_newline, line_is_newlines_before.
  unfold position_from_ast_span. rewrite (proj2 (rfind_nl_spec (firstnN s bs))). f_equal. lia.
Qed.

Theorem pest_line_col_spec : forall bs pos,
  pest_line_col bs pos = (1 + count_nl (firstnN pos bs), 1 + nchars (line_tail (firstnN pos bs))).
Proof. intros. unfold pest_line_col. rewrite pest_lc_loop_eq, linecol_loop_spec. f_equal; lia. Qed.

(* CRLF: the character after "\r\n" is at column 1 of the next line; a position between '\r' and '\n'
   still belongs to the old line *)
Example crlf_example :
  pest_span_to_position [97; 13; 10; 98; 13; 10; 195; 169; 99] 8 9 = mkPos 3 2 (8, 9) 8
  /\ pest_line_col [97; 13; 10; 98] 2 = (1, 3)
  /\ pest_line_col [97; 13; 10; 98] 3 = (2, 1).
Proof. vm_compute. auto. Qed.
