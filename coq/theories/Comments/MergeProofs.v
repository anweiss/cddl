(* C16 - proofs about the comment merge model (Comments/Merge.v): every comment goes to exactly one place. *)
From Cddl Require Import Base.Bytes Base.Lists Comments.Merge.
From Coq Require Import Permutation.
Open Scope N_scope.

Definition flat (m : merged) : list N := concat (m_assigned m) ++ m_orphans m ++ m_dropped m.

Lemma push_at_length : forall l i x, length (push_at i x l) = length l.
Proof. induction l as [|s l IH]; intros [|i] x; cbn [push_at length]; auto. Qed.

Lemma push_at_perm : forall l i x, (i < length l)%nat -> Permutation (concat (push_at i x l)) (x :: concat l).
Proof.
  induction l as [|s l IH]; intros i x H; [cbn in H; lia|].
  destruct i as [|i]; cbn [push_at concat].
  - rewrite <- app_assoc. cbn [app]. symmetry. apply Permutation_middle.
  - cbn [length] in H. rewrite (IH i x) by lia. symmetry. apply Permutation_middle.
Qed.

Lemma max_last_in : forall {A} (gt : A -> A -> bool) l best x,
  max_last gt best l = Some x -> best = Some x \/ In x l.
Proof.
  induction l as [|y l IH]; intros best x H; cbn [max_last] in H; [left; exact H|].
  apply IH in H as [H|H]; [|right; right; exact H].
  destruct best as [b|]; [destruct (gt b y)|]; injection H as <-; [left; reflexivity | right; left; reflexivity ..].
Qed.

Lemma enumerate_in : forall {A} (l : list A) i a, In (i, a) (enumerate l) -> (i < length l)%nat.
Proof.
  intros A l i a H. unfold enumerate in H. apply in_combine_l in H. apply in_seq in H. lia.
Qed.

Lemma bind_in_range : forall cs anchors conts c i, bind cs anchors conts c = Bound i -> (i < length anchors)%nat.
Proof.
  intros cs anchors conts c i H. unfold bind in H.
  destruct (if c_pure c then None else trailing_target c anchors) as [j|] eqn:E.
  - inversion H; subst. destruct (c_pure c); [discriminate|]. unfold trailing_target in E.
    destruct (max_last anchor_gt None _) as [[k a]|] eqn:M; [|discriminate]. cbn in E. inversion E; subst.
    apply max_last_in in M as [M|M]; [discriminate|]. apply filter_In in M as [M _]. eapply enumerate_in; eauto.
  - destruct (leading_target c anchors) as [[k a]|] eqn:L; [|discriminate].
    destruct (match enclosing_close c conts with Some close => close <? a_lo a | None => false end); [discriminate|].
    destruct (contiguous c (a_line_hi a) cs); [|discriminate]. inversion H; subst.
    unfold leading_target in L. apply find_some in L as [L _]. eapply enumerate_in; eauto.
Qed.

Lemma merge_loop_inv : forall all anchors conts todo acc,
  length (m_assigned acc) = length anchors ->
  length (m_assigned (merge_loop all anchors conts todo acc)) = length anchors
  /\ Permutation (flat (merge_loop all anchors conts todo acc)) (flat acc ++ map c_id todo).
Proof.
  induction todo as [|c todo IH]; intros acc Hlen.
  - cbn [merge_loop map]. rewrite app_nil_r. auto.
  - cbn [merge_loop map]. set (acc' := match bind all anchors conts c with Bound _ => _ | _ => _ end).
    assert (Step : length (m_assigned acc') = length anchors /\ Permutation (flat acc') (flat acc ++ [c_id c])).
    { subst acc'. unfold flat. destruct (bind all anchors conts c) as [i| |] eqn:B; cbn [m_assigned m_orphans m_dropped].
      - rewrite push_at_length. split; [exact Hlen |]. apply bind_in_range in B. rewrite <- Hlen in B.
        rewrite (push_at_perm _ i (c_id c) B). apply Permutation_cons_append.
      - split; [exact Hlen |]. rewrite <- !app_assoc. do 2 apply Permutation_app_head. apply Permutation_app_comm.
      - split; [exact Hlen |]. rewrite !app_assoc. reflexivity. }
    destruct Step as [L P]. destruct (IH acc' L) as [L' P']. split; [exact L' |].
    rewrite P', P, <- app_assoc. reflexivity.
Qed.

Lemma concat_nils : forall {A B} (l : list A), concat (map (fun _ => @nil B) l) = [].
Proof. induction l; cbn; auto. Qed.

(* every comment ends in exactly one of: one anchor's list, the orphans, the dropped (non-contiguous) ones *)
Theorem merge_partition : forall cs anchors conts,
  Permutation (flat (merge cs anchors conts)) (map c_id cs).
Proof.
  intros cs anchors conts. unfold merge.
  etransitivity; [apply merge_loop_inv; cbn [m_assigned]; apply map_length |].
  unfold flat. cbn [m_assigned m_orphans m_dropped]. rewrite concat_nils. reflexivity.
Qed.

Theorem merge_at_most_one : forall cs anchors conts,
  NoDup (map c_id cs) -> NoDup (concat (m_assigned (merge cs anchors conts))).
Proof.
  intros cs anchors conts H. pose proof (merge_partition cs anchors conts) as P.
  apply Permutation_sym in P. apply (Permutation_NoDup P) in H. unfold flat in H.
  exact (proj1 (NoDup_app_inv _ _ H)).
Qed.

(* what is attached is a source comment, carried by identity (the text is never touched) *)
Theorem merge_text_unchanged : forall cs anchors conts x,
  In x (concat (m_assigned (merge cs anchors conts))) -> In x (map c_id cs).
Proof.
  intros cs anchors conts x H. eapply Permutation_in; [apply merge_partition|]. unfold flat. apply in_or_app. left. exact H.
Qed.

(* sub-multiset: nothing is duplicated or invented even when two comments carry the same identity *)
Theorem merge_subset : forall cs anchors conts x,
  (count_occ N.eq_dec (concat (m_assigned (merge cs anchors conts))) x <= count_occ N.eq_dec (map c_id cs) x)%nat.
Proof.
  intros cs anchors conts x. pose proof (merge_partition cs anchors conts) as P.
  pose proof (proj1 (Permutation_count_occ N.eq_dec _ _) P x) as Q. rewrite <- Q. unfold flat. rewrite count_occ_app. lia.
Qed.

Theorem merge_shape : forall cs anchors conts, length (m_assigned (merge cs anchors conts)) = length anchors.
Proof. intros. apply merge_loop_inv, map_length. Qed.

(* non-vacuity: `a = int ; c1 NL / tstr` - the trailing comment binds to the first choice (anchor 1), a leading
   comment binds to the next rule, a comment after everything is an orphan *)
Example merge_example :
  let cs := [ {| c_lo := 8; c_hi := 12; c_line := 1; c_pure := false; c_id := 0 |};
              {| c_lo := 22; c_hi := 26; c_line := 3; c_pure := true; c_id := 1 |};
              {| c_lo := 40; c_hi := 44; c_line := 5; c_pure := true; c_id := 2 |} ] in
  let anchors := [ {| a_lo := 0; a_hi := 0; a_line_hi := 1; a_kind := RuleLeading |};
                   {| a_lo := 4; a_hi := 7; a_line_hi := 1; a_kind := ChoiceTrailing |};
                   {| a_lo := 15; a_hi := 15; a_line_hi := 2; a_kind := ChoiceLeading |};
                   {| a_lo := 15; a_hi := 19; a_line_hi := 2; a_kind := ChoiceTrailing |};
                   {| a_lo := 28; a_hi := 28; a_line_hi := 4; a_kind := RuleLeading |};
                   {| a_lo := 32; a_hi := 35; a_line_hi := 4; a_kind := ChoiceTrailing |} ] in
  let m := merge cs anchors [] in
  m_assigned m = [[]; [0]; []; []; [1]; []] /\ m_orphans m = [2] /\ m_dropped m = [].
Proof. vm_compute. repeat split. Qed.
