(* C16 - proofs about the lexical model (Comments/Lex.v): rendering then lexing is the identity on well-formed tokens. *)
From Cddl Require Import Base.Bytes Comments.Lex.
Open Scope N_scope.

Lemma rev_step : forall (c : N) acc l, rev (c :: acc) ++ l = rev acc ++ c :: l.
Proof. intros. cbn [rev]. rewrite <- app_assoc. reflexivity. Qed.

Lemma lexm_comment : forall txt acc rest,
  forallb (fun c => negb (c =? 10) && negb (c =? 13)) txt = true ->
  lexm MComment acc (txt ++ 10 :: rest) = TComment (rev acc ++ txt) :: lexm MNormal [] rest.
Proof.
  induction txt as [|c txt IH]; intros acc rest H.
  - cbn [app lexm]. rewrite app_nil_r. reflexivity.
  - cbn [forallb] in H. apply andb_prop in H as [H1 H2]. cbn [app lexm].
    destruct (c =? 10) eqn:E1; [lia|]. destruct (c =? 13) eqn:E2; [lia|]. cbn [andb].
    rewrite (IH (c :: acc) rest H2), rev_step. reflexivity.
Qed.

Lemma lexm_bytes : forall raw acc rest,
  forallb (fun c => negb (c =? 39)) raw = true ->
  lexm MBytes acc (raw ++ 39 :: rest) = TBytes (rev acc ++ raw) :: lexm MNormal [] rest.
Proof.
  induction raw as [|c raw IH]; intros acc rest H.
  - cbn [app lexm]. rewrite app_nil_r. reflexivity.
  - cbn [forallb] in H. apply andb_prop in H as [H1 H2]. cbn [app lexm].
    destruct (c =? 39) eqn:E1; [lia|]. rewrite (IH (c :: acc) rest H2), rev_step. reflexivity.
Qed.

Lemma lexm_text : forall raw esc acc rest,
  wf_text_raw esc raw = true ->
  lexm (MText esc) acc (raw ++ 34 :: rest) = TText (rev acc ++ raw) :: lexm MNormal [] rest.
Proof.
  induction raw as [|c raw IH]; intros esc acc rest H.
  - cbn [wf_text_raw] in H. destruct esc; [discriminate|]. cbn [app lexm]. rewrite app_nil_r. reflexivity.
  - cbn [wf_text_raw] in H. cbn [app]. destruct esc.
    + cbn [lexm]. rewrite (IH false (c :: acc) rest H), rev_step. reflexivity.
    + cbn [lexm]. destruct (c =? 34) eqn:E1; [discriminate|]. destruct (c =? 92) eqn:E2.
      * rewrite (IH true (c :: acc) rest H), rev_step. reflexivity.
      * rewrite (IH false (c :: acc) rest H), rev_step. reflexivity.
Qed.

Lemma lexm_word_char : forall c acc s, is_special c = false -> lexm MWord acc (c :: s) = lexm MWord (c :: acc) s.
Proof.
  intros c acc s H. unfold is_special in H. cbn [lexm].
  destruct (c =? 59) eqn:E1; [lia|]. destruct (c =? 34) eqn:E2; [lia|]. destruct (c =? 39) eqn:E3; [lia|].
  destruct (is_ws c) eqn:E4; [lia|]. reflexivity.
Qed.

Lemma lexm_word : forall w c acc rest,
  forallb (fun c => negb (is_special c)) (c :: w) = true ->
  lexm MWord acc (c :: w ++ 32 :: rest) = TWord (rev acc ++ c :: w) :: lexm MNormal [] rest.
Proof.
  induction w as [|d w IH]; intros c acc rest H; cbn [forallb] in H; apply andb_prop in H as [H1 H2];
    rewrite lexm_word_char by apply negb_true_iff, H1.
  - reflexivity. (* the blank ends the word *)
  - cbn [app]. rewrite (IH d (c :: acc) rest H2), rev_step. reflexivity.
Qed.

(* the opening delimiter of a literal or comment and the blank after a literal are single steps of lexm,
   taken by computation *)
Lemma lexm_token : forall t rest, wf_token t = true ->
  lexm MNormal [] (render_token t ++ rest) = t :: lexm MNormal [] rest.
Proof.
  intros [w | raw | raw | txt |] rest Ht; cbn [wf_token] in Ht; cbn [render_token app];
    rewrite <- ?app_assoc; cbn [app].
  - apply andb_prop in Ht as [Hn Hw]. destruct w as [|c w]; [discriminate Hn |].
    (* on a non-empty input MNormal and MWord take the same step *)
    exact (lexm_word w c [] rest Hw).
  - exact (lexm_text raw false [] (32 :: rest) Ht).
  - exact (lexm_bytes raw [] (32 :: rest) Ht).
  - exact (lexm_comment txt [] rest Ht).
  - discriminate.
Qed.

Lemma lex_render_app : forall ts rest, forallb wf_token ts = true -> lex (render ts ++ rest) = ts ++ lex rest.
Proof.
  unfold lex. induction ts as [| t ts IH]; intros rest H; [reflexivity |].
  cbn [forallb] in H. apply andb_prop in H as [Ht Hts].
  cbn [render flat_map]. fold (render ts). rewrite <- app_assoc, (lexm_token t _ Ht), (IH rest Hts). reflexivity.
Qed.

Theorem lex_render : forall ts, forallb wf_token ts = true -> lex (render ts) = ts.
Proof.
  intros ts H. rewrite <- (app_nil_r (render ts)), (lex_render_app ts [] H). apply app_nil_r.
Qed.

(* the code tokens survive untouched: a rendered comment ends with a line break, so it cannot absorb what follows,
   and a ';' inside a text or byte string literal is not lexed as a comment *)
Theorem strip_comments_render : forall ts, forallb wf_token ts = true ->
  strip_comments (lex (render ts)) = strip_comments ts.
Proof. intros ts H. rewrite (lex_render ts H). reflexivity. Qed.

Theorem comments_render : forall ts, forallb wf_token ts = true ->
  comments_of (lex (render ts)) = comments_of ts.
Proof. intros ts H. rewrite (lex_render ts H). reflexivity. Qed.

Lemma comments_around : forall t before after,
  wf_token t = true -> is_comment t = false -> forallb wf_token before = true -> forallb wf_token after = true ->
  comments_of (lex (render (before ++ t :: after))) = comments_of before ++ comments_of after.
Proof.
  intros t before after Ht Hc Hb Ha. rewrite lex_render.
  - unfold comments_of. rewrite filter_app. cbn [filter]. rewrite Hc. reflexivity.
  - rewrite forallb_app. cbn [forallb]. rewrite Hb, Ht, Ha. reflexivity.
Qed.

(* a well-formed literal is lexed as that literal whatever it contains - in particular when it contains ';' *)
Theorem comment_only_outside_literals : forall raw before after,
  forallb wf_token before = true -> forallb wf_token after = true ->
  (wf_text_raw false raw = true ->
     comments_of (lex (render (before ++ TText raw :: after))) = comments_of before ++ comments_of after) /\
  (forallb (fun c => negb (c =? 39)) raw = true ->
     comments_of (lex (render (before ++ TBytes raw :: after))) = comments_of before ++ comments_of after).
Proof.
  intros raw before after Hb Ha. split; intros Hr; apply comments_around; auto.
Qed.

(* without the line break the comment does absorb the code after it (what a printer that trims the end of a line causes) *)
Example comment_without_newline_absorbs :
  lex ([97; 32; 59; 99] ++ [32; 47; 32; 98]) = [TWord [97]; TComment [99; 32; 47; 32; 98]].
Proof. vm_compute. reflexivity. Qed.

Example lex_example :
  lex (render [TWord [97]; TText [120; 59; 92; 34; 59]; TComment [32; 34; 99]; TBytes [59; 59]; TWord [98]])
  = [TWord [97]; TText [120; 59; 92; 34; 59]; TComment [32; 34; 99]; TBytes [59; 59]; TWord [98]].
Proof. vm_compute. reflexivity. Qed.
