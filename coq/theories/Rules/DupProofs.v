(* C12 - proofs about the duplicate-definition check (model: Dup.v, specification: Spec.v). *)
From Coq Require Import Lia.
From Cddl Require Import Rules.Doc Rules.Dup Rules.Spec.

Lemma name_eqb_eq : forall a b, name_eqb a b = true <-> a = b.
Proof.
  induction a as [|x a IH]; destruct b as [|y b]; simpl; try (split; congruence).
  rewrite andb_true_iff, N.eqb_eq, IH.
  split; [intros [-> ->]; reflexivity | intros H; inversion H; auto].
Qed.

Lemma name_eqb_refl : forall a, name_eqb a a = true.
Proof. intros a. apply name_eqb_eq. reflexivity. Qed.

Lemma name_eqb_sym : forall a b, name_eqb a b = name_eqb b a.
Proof. intros a b. apply eq_true_iff_eq. rewrite !name_eqb_eq. split; congruence. Qed.

Lemma mem_In : forall n s, mem n s = true <-> In n s.
Proof.
  intros n s. unfold mem. rewrite existsb_exists. split.
  - intros [y [Hy E]]. apply name_eqb_eq in E. subst. exact Hy.
  - intros H. exists n. split; [exact H | apply name_eqb_refl].
Qed.

(* a search whose specification has at most one solution: what it returns, read both ways *)
Lemma search_iff : forall (A : Type) (Sol : A -> Prop) (NoSol : Prop) (res : option A),
  match res with Some a => Sol a | None => NoSol end ->
  (forall a, Sol a -> ~ NoSol) -> (forall a b, Sol a -> Sol b -> a = b) ->
  (forall a, res = Some a <-> Sol a) /\ (res = None <-> NoSol).
Proof.
  intros A Sol NoSol [b|] H X U; split.
  - intros a. split; [intros E; injection E as <-; exact H | intros Ha; rewrite (U b a H Ha); reflexivity].
  - split; [discriminate | intros HN; destruct (X b H HN)].
  - intros a. split; [discriminate | intros Ha; destruct (X a Ha H)].
  - split; [intros _; exact H | reflexivity].
Qed.

Lemma contains_insert : forall m k v n, contains_key (insert m k v) n = name_eqb k n || contains_key m n.
Proof.
  intros m k v n. unfold contains_key, insert. simpl. destruct (name_eqb k n) eqn:E; [reflexivity |]. simpl.
  induction m as [|e m IH]; simpl; [reflexivity |].
  destruct (name_eqb (fst e) k) eqn:Ee; simpl; rewrite IH; [| reflexivity].
  apply name_eqb_eq in Ee. rewrite Ee, E. reflexivity.
Qed.

Lemma contains_or_insert : forall m k v n, contains_key (or_insert m k v) n = name_eqb k n || contains_key m n.
Proof.
  intros m k v n. unfold or_insert. destruct (contains_key m k) eqn:E; [| reflexivity].
  destruct (name_eqb k n) eqn:Ekn; [| reflexivity]. apply name_eqb_eq in Ekn. subst n. exact E.
Qed.

Lemma dup_at_iff : forall rs i,
  dup_at rs i <-> exists j n p, j < i /\ nth_error rs i = Some (n, true) /\ nth_error rs j = Some (n, p).
Proof.
  intros rs i. unfold dup_at, plain_at, same_name. split.
  - intros [[n Hn] [j [Hj [m [p [q [H1 H2]]]]]]]. rewrite Hn in H2. inversion H2; subst. exists j, m, p. auto.
  - intros [j [n [p [Hj [Hi Hjn]]]]]. split; [exists n; exact Hi |]. exists j. split; [exact Hj |]. exists n, p, true. auto.
Qed.

Lemma nth_error_mid : forall (A : Type) (pre : list A) x rest, nth_error (pre ++ x :: rest) (length pre) = Some x.
Proof. intros. rewrite nth_error_app2, Nat.sub_diag by lia. reflexivity. Qed.

Lemma dup_at_next : forall pre n p rest,
  dup_at (pre ++ (n, p) :: rest) (length pre) <-> p = true /\ In n (map fst pre).
Proof.
  intros pre n p rest. rewrite dup_at_iff. split.
  - intros [j [m [q [Hj [Hi Hjm]]]]]. rewrite nth_error_mid in Hi. inversion Hi; subst. split; [reflexivity |].
    rewrite nth_error_app1 in Hjm by exact Hj. exact (in_map fst _ _ (nth_error_In _ _ Hjm)).
  - intros [-> Hin]. apply in_map_iff in Hin. destruct Hin as [[m q] [<- Hin]].
    apply In_nth_error in Hin. destruct Hin as [j Hj].
    assert (L : j < length pre) by (apply nth_error_Some; congruence).
    exists j, m, q. rewrite (nth_error_app1 _ _ L), nth_error_mid. auto.
Qed.

Definition dup_post (rs : list rule_view) (res : option (nat * name)) : Prop :=
  match res with
  | Some (i, m) => first_dup_at rs i /\ exists q, nth_error rs i = Some (m, q)
  | None => forall i, ~ dup_at rs i
  end.

(* [pre] = the rules the loop has passed: none of them raised the error, and their names are the keys of the two maps *)
Lemma dup_loop_post : forall rs pre seen incr,
  (forall n, contains_key seen n || contains_key incr n = true <-> In n (map fst pre)) ->
  (forall i, i < length pre -> ~ dup_at (pre ++ rs) i) ->
  dup_post (pre ++ rs) (dup_loop rs (length pre) seen incr).
Proof.
  induction rs as [|[n p] rest IH]; intros pre seen incr Inv Hpre; simpl.
  - intros i Hd. destruct (Nat.lt_ge_cases i (length pre)) as [L | L]; [exact (Hpre i L Hd) |].
    destruct Hd as [[m Hm] _]. apply nth_error_None in L. rewrite app_nil_r in Hm. congruence.
  - pose proof (dup_at_next pre n p rest) as D.
    assert (Step : forall seen' incr',
      (forall m, contains_key seen' m || contains_key incr' m = true <->
                 n = m \/ contains_key seen m || contains_key incr m = true) ->
      ~ dup_at (pre ++ (n, p) :: rest) (length pre) ->
      dup_post (pre ++ (n, p) :: rest) (dup_loop rest (S (length pre)) seen' incr')).
    { intros seen' incr' HK ND. specialize (IH (pre ++ [(n, p)]) seen' incr').
      rewrite <- app_assoc, app_length, Nat.add_1_r in IH. apply IH.
      - intros m. rewrite HK, Inv, map_app, in_app_iff. simpl. tauto.
      - intros i Hi. destruct (Nat.eq_dec i (length pre)) as [-> | Ne]; [exact ND | apply Hpre; lia]. }
    destruct p; simpl.
    + destruct (contains_key seen n || contains_key incr n) eqn:Kn.
      * split; [split; [apply D; split; [reflexivity | apply Inv; exact Kn] | exact Hpre] |].
        exists true. apply nth_error_mid.
      * apply Step; [intros m; rewrite contains_insert, !orb_true_iff, name_eqb_eq; tauto |].
        rewrite D, <- Inv, Kn. intros [_ H]. discriminate.
    + apply Step; [intros m; rewrite contains_or_insert, !orb_true_iff, name_eqb_eq; tauto |].
      rewrite D. intros [H _]. discriminate.
Qed.

Lemma first_unique : forall (P : nat -> Prop) i i',
  P i /\ (forall k, k < i -> ~ P k) -> P i' /\ (forall k, k < i' -> ~ P k) -> i = i'.
Proof.
  intros P i i' [H1 M1] [H2 M2].
  destruct (Nat.lt_trichotomy i i') as [L | [E | L]]; [destruct (M2 i L H1) | exact E | destruct (M1 i' L H2)].
Qed.

Lemma dup_error_iff : forall rs,
  (forall i n, dup_error rs = Some (i, n) <-> first_dup_at rs i /\ exists p, nth_error rs i = Some (n, p)) /\
  (dup_error rs = None <-> forall i, ~ dup_at rs i).
Proof.
  intros rs.
  destruct (search_iff _ (fun '(i, n) => first_dup_at rs i /\ exists p, nth_error rs i = Some (n, p))
              (forall i, ~ dup_at rs i) (dup_error rs)) as [HS HN].
  - apply (dup_loop_post rs [] [] []); [intros n; split; [discriminate | intros []] | intros i Hi; inversion Hi].
  - intros [i n] [[Hd _] _] H. exact (H i Hd).
  - intros [i1 n1] [i2 n2] [H1 [p1 E1]] [H2 [p2 E2]]. rewrite (first_unique _ _ _ H1 H2) in *. congruence.
  - split; [intros i n; exact (HS (i, n)) | exact HN].
Qed.

(* the error is raised exactly at the first plain definition whose name was defined before,
   and it carries that rule's name *)
Theorem dup_error_spec : forall rs i n,
  dup_error rs = Some (i, n) <-> first_dup_at rs i /\ exists p, nth_error rs i = Some (n, p).
Proof. intros rs. apply dup_error_iff. Qed.

Lemma dup_error_none : forall rs, dup_error rs = None <-> forall i, ~ dup_at rs i.
Proof. intros rs. apply dup_error_iff. Qed.

Theorem dup_spec : forall rs i, dup_check rs = Some i <-> first_dup_at rs i.
Proof.
  intros rs i. unfold dup_check. split.
  - destruct (dup_error rs) as [[i' n]|] eqn:E; simpl; [| discriminate].
    intros H. inversion H; subst. apply dup_error_spec in E. tauto.
  - intros Hf. destruct (proj1 Hf) as [[n Hn] _].
    rewrite (proj2 (dup_error_spec rs i n)); [reflexivity |]. split; [exact Hf | exists true; exact Hn].
Qed.

Theorem dup_none : forall rs,
  dup_check rs = None <->
  forall i j n p, j < i -> nth_error rs i = Some (n, true) -> nth_error rs j = Some (n, p) -> False.
Proof.
  intros rs. transitivity (dup_error rs = None).
  { unfold dup_check. destruct (dup_error rs); split; (discriminate || reflexivity). }
  rewrite dup_error_none. split.
  - intros H i j n p Hj Hi Hjn. apply (H i), dup_at_iff. exists j, n, p. auto.
  - intros H i Hd. apply dup_at_iff in Hd. destruct Hd as [j [n [p [Hj [Hi Hjn]]]]]. exact (H i j n p Hj Hi Hjn).
Qed.

(* any number of "/=" and "//=" increments is accepted *)
Theorem increments_free : forall rs, (forall i, ~ plain_at rs i) -> dup_check rs = None.
Proof.
  intros rs H. apply dup_none. intros i j n p _ Hi _. apply (H i). exists n. exact Hi.
Qed.

(* the property's reading: the document is rejected exactly when some name receives a plain
   definition after any earlier definition of the same name *)
Theorem dup_rejects_iff : forall rs,
  (exists i, dup_check rs = Some i) <->
  exists i j n p, j < i /\ nth_error rs i = Some (n, true) /\ nth_error rs j = Some (n, p).
Proof.
  intros rs. split.
  - intros [i H]. apply dup_spec in H. exists i. apply dup_at_iff, H.
  - intros [i [j [n [p [Hj [Hi Hjn]]]]]]. destruct (dup_check rs) as [k|] eqn:E; [exists k; reflexivity |].
    rewrite dup_none in E. destruct (E i j n p Hj Hi Hjn).
Qed.

(* sockets: the printed names "$x", "$$x" and "x" are pairwise different, whatever x. The printed name is the
   identifier behind 0, 1 or 2 dollar signs, and an identifier that does not start with one fixes their number. *)
Lemma dollars_inj : forall k1 k2 a b, starts_dollar a = false -> starts_dollar b = false ->
  repeat 36%N k1 ++ a = repeat 36%N k2 ++ b -> k1 = k2 /\ a = b.
Proof.
  induction k1 as [|k1 IH]; intros [|k2] a b Da Db E; simpl in E.
  - auto.
  - subst a. discriminate.
  - subst b. discriminate.
  - injection E as E. destruct (IH k2 a b Da Db E). auto.
Qed.

Lemma printed_socket_distinct : forall r1 r2,
  starts_dollar (rid r1) = false -> starts_dollar (rid r2) = false ->
  printed r1 = printed r2 -> (rsock r1 = 0%N <-> rsock r2 = 0%N) /\ (rsock r1 = 1%N <-> rsock r2 = 1%N) /\ rid r1 = rid r2.
Proof.
  intros r1 r2 D1 D2 E.
  assert (P : forall r, exists k, printed r = repeat 36%N k ++ rid r /\ (rsock r = 0%N <-> k = 0) /\ (rsock r = 1%N <-> k = 1)).
  { intros r. unfold printed. destruct (rsock r) as [|[?|?|]]; [exists 0 | exists 2 | exists 2 | exists 1];
      repeat split; intros; (reflexivity || discriminate). }
  destruct (P r1) as [k1 [E1 [Z1 O1]]], (P r2) as [k2 [E2 [Z2 O2]]]. rewrite E1, E2 in E.
  destruct (dollars_inj k1 k2 _ _ D1 D2 E) as [-> Er].
  exact (conj (iff_trans Z1 (iff_sym Z2)) (conj (iff_trans O1 (iff_sym O2)) Er)).
Qed.
