(* Properties of the pest interpreter PegRun.v, for every grammar:
   - fuel monotonicity: an answer other than "out of fuel" does not change when more fuel is given;
   - well-formedness of the pair tree: spans are nested, siblings are ordered and disjoint, every span lies
     inside the input, and the interpreter only moves forward;
   - the interpreter reads its grammar only through [find_rule] and the three ids, so a grammar with copies of some of
     its rules put in front is interpreted alike ([front], used by the sweeps of TokenProofs.v). *)
From Coq Require Import Lia.
From Cddl Require Import Grammar.PegSyn Grammar.PegRun.
Open Scope N_scope.

(* r' is the answer of the call that answered r, made with more fuel: the same, unless r is "out of fuel" *)
Definition below (r r' : res) : Prop := r <> OutOfFuel -> r' = r.

Lemma below_refl : forall r, below r r.
Proof. intros r _. reflexivity. Qed.

Lemma below_antisym : forall r r', below r r' -> below r' r -> r = r'.
Proof.
  intros r r' H H'. destruct r; try (symmetry; apply H; discriminate).
  destruct r'; try (apply H'; discriminate). reflexivity.
Qed.

Lemma below_match : forall r r' (k k' : list tree -> N -> list N -> res) z z',
  below r r' -> (forall ts p w, below (k ts p w) (k' ts p w)) -> below z z' ->
  below (match r with Ok ts p w => k ts p w | Fail => z | OutOfFuel => OutOfFuel end)
        (match r' with Ok ts p w => k' ts p w | Fail => z' | OutOfFuel => OutOfFuel end).
Proof.
  intros r r' k k' z z' H Hk Hz. destruct r; [rewrite H by discriminate; apply Hk | rewrite H by discriminate; exact Hz | congruence].
Qed.

(* the two sides make the same calls: below_match at each case analysis of the result of a recursive call, the
   induction hypothesis at the call itself, below_refl where no call is made *)
Ltac calls := repeat (apply below_match; intros); auto using below_refl.

Section Mono.
Variables g g' : pgrammar.
Hypothesis Hr : forall r, find_rule (pg_rules g') r = find_rule (pg_rules g) r.
Hypothesis Hw : pg_ws g' = pg_ws g.
Hypothesis Hc : pg_comment g' = pg_comment g.
Hypothesis He : pg_eoi g' = pg_eoi g.

(* Two facts by one induction: with g' = g, an answer does not change when more fuel is given (eval_fuel_mono); with
   f' = f, in both directions, two grammars that look alike through [find_rule] and the three ids are interpreted
   alike (eval_ext).  Stated for two arbitrary fuels f <= f' so that the induction unfolds each side exactly once. *)
Lemma mono_all : forall f f', (f <= f')%nat ->
  (forall e a p w, below (eval g f e a p w) (eval g' f' e a p w)) /\
  (forall x a p w, below (more g f x a p w) (more g' f' x a p w)) /\
  (forall a p w, below (skip g f a p w) (skip g' f' a p w)).
Proof.
  induction f as [|f IH]; intros f' Hle; [repeat split; intros; intros H; contradiction H; reflexivity|].
  destruct f' as [|f']; [lia|]. destruct (IH f') as [IHe [IHm IHs]]; [lia|]. repeat split.
  - (* cbn refolds eval itself but leaves its siblings in the mutual block as raw fix: hence the fold *)
    intros e a p w. destruct e as [s|s|lo hi|r|b|x y|x y|x|x|x|n x|x|x]; cbn [eval];
      fold (more g) (skip g) (more g') (skip g'); rewrite ?Hr, ?Hw, ?Hc, ?He; calls.
    + (* PRef *) destruct (find_rule (pg_rules g) r) as [[m body]|]; cbv zeta; calls.
    + (* PRep *) destruct n as [|[|n']]; calls.
  - intros x a p w. cbn [more]; fold (eval g) (skip g) (eval g') (skip g'). calls.
  - intros a p w. cbn [skip]; fold (eval g) (eval g'). unfold skip_expr, ws_star. rewrite Hw, Hc. destruct a; calls.
Qed.
End Mono.

Theorem eval_fuel_mono : forall g f f' e a p w r,
  (f <= f')%nat -> eval g f e a p w = r -> r <> OutOfFuel -> eval g f' e a p w = r.
Proof. intros g f f' e a p w r Hle <-. apply (mono_all g g); auto. Qed.

Lemma eval_ext : forall g g', (forall r, find_rule (pg_rules g') r = find_rule (pg_rules g) r) ->
  pg_ws g' = pg_ws g -> pg_comment g' = pg_comment g -> pg_eoi g' = pg_eoi g ->
  forall f e a p w, eval g' f e a p w = eval g f e a p w.
Proof. intros g g' Hr Hw Hc He f e a p w. apply below_antisym; apply mono_all; auto. Qed.

Section Proofs.
Variable g : pgrammar.

(* length of a text in UTF-8 bytes: positions are byte offsets, the input is a list of characters *)
Fixpoint blen (w : list N) : N := match w with [] => 0 | c :: w' => ulen c + blen w' end.

(* fwf lo hi ts: the forest ts tiles part of [lo,hi] from left to right - every tree starts at or after the end of
   the one before it (or lo), its children do the same inside its own span, and the last one ends at or before hi *)
Inductive fwf : N -> N -> list tree -> Prop :=
| fwf_nil : forall lo hi, lo <= hi -> fwf lo hi []
| fwf_cons : forall lo hi r s e ch ts, lo <= s -> fwf s e ch -> fwf e hi ts -> fwf lo hi (Node r s e ch :: ts).

Lemma fwf_le : forall lo hi ts, fwf lo hi ts -> lo <= hi.
Proof. induction 1; lia. Qed.

Lemma fwf_app : forall lo mid hi t1 t2, fwf lo mid t1 -> fwf mid hi t2 -> fwf lo hi (t1 ++ t2).
Proof.
  intros lo mid hi t1 t2 H1. revert hi t2. induction H1 as [lo mid Hle|lo mid r s e ch ts Hs Hch _ Hts IH]; intros hi t2 H2; cbn.
  - destruct H2 as [lo' hi' Hle'|lo' hi' r s e ch ts Hs Hch Hts]; constructor; try lia; auto.
  - constructor; auto.
Qed.

Lemma ulen_pos : forall c, 1 <= ulen c.
Proof. intros c. unfold ulen. repeat destruct (_ <? _); lia. Qed.

Lemma match_str_inv : forall s w p p' w', match_str s w p = Some (p', w') -> p <= p' /\ p' + blen w' = p + blen w.
Proof.
  induction s as [|c s IH]; intros w p p' w' H; cbn in H.
  - inversion H; subst. lia.
  - destruct w as [|d w0]; [discriminate|]. destruct (c =? d); [|discriminate].
    apply IH in H. cbn [blen]. pose proof (ulen_pos d). lia.
Qed.

Lemma match_istr_inv : forall s w p p' w', match_istr s w p = Some (p', w') -> p <= p' /\ p' + blen w' = p + blen w.
Proof.
  induction s as [|c s IH]; intros w p p' w' H; cbn in H.
  - inversion H; subst. lia.
  - destruct w as [|d w0]; [discriminate|]. destruct (lower c =? lower d); [|discriminate].
    apply IH in H. cbn [blen]. pose proof (ulen_pos d). lia.
Qed.

(* what every call from position p on the text w returns, if it succeeds: a forest between p and the new position,
   and the new position is p plus the bytes consumed *)
Definition inv (p : N) (w : list N) (r : res) : Prop :=
  match r with
  | Ok ts p' w' => fwf p p' ts /\ p' + blen w' = p + blen w
  | _ => True
  end.

Lemma inv_leaf : forall p w p' w', p <= p' -> p' + blen w' = p + blen w -> inv p w (Ok [] p' w').
Proof. intros p w p' w' H1 H2. split; [constructor; exact H1|exact H2]. Qed.

Lemma inv_ok_nil : forall p w, inv p w (Ok [] p w).
Proof. intros. apply inv_leaf; lia. Qed.

Lemma inv_node : forall r p w ts p' w', inv p w (Ok ts p' w') -> inv p w (Ok [Node r p p' ts] p' w').
Proof.
  intros r p w ts p' w' [F E]. split; [|exact E]. pose proof (fwf_le _ _ _ F). constructor; [lia | exact F | constructor; lia].
Qed.

(* r is the result of a recursive call made from p1, w1 *)
Lemma inv_match : forall p w p1 w1 r (k : list tree -> N -> list N -> res) z,
  inv p1 w1 r -> (forall ts p' w', inv p1 w1 (Ok ts p' w') -> inv p w (k ts p' w')) -> inv p w z ->
  inv p w (match r with Ok ts p' w' => k ts p' w' | Fail => z | OutOfFuel => OutOfFuel end).
Proof. intros p w p1 w1 [ts p' w'| |] k z H Hk Hz; [apply Hk, H | exact Hz | exact I]. Qed.

Lemma inv_app : forall p w t1 p1 w1 t2 p2 w2,
  inv p w (Ok t1 p1 w1) -> inv p1 w1 (Ok t2 p2 w2) -> inv p w (Ok (t1 ++ t2) p2 w2).
Proof. intros p w t1 p1 w1 t2 p2 w2 [F1 E1] [F2 E2]. split; [exact (fwf_app _ _ _ _ _ F1 F2) | lia]. Qed.

Lemma inv_all : forall f,
  (forall e a p w, inv p w (eval g f e a p w)) /\
  (forall x a p w, inv p w (more g f x a p w)) /\
  (forall a p w, inv p w (skip g f a p w)).
Proof.
  induction f as [|f [IHe [IHm IHs]]].
  - repeat split; intros; exact I.
  - repeat split.
    + intros e a p w. destruct e as [s|s|lo hi|r|b|x y|x y|x|x|x|n x|x|x]; cbn [eval]; fold (more g) (skip g).
      * destruct (match_str s w p) as [[p' w']|] eqn:E; [|exact I]. apply match_str_inv in E. apply inv_leaf; lia.
      * destruct (match_istr s w p) as [[p' w']|] eqn:E; [|exact I]. apply match_istr_inv in E. apply inv_leaf; lia.
      * destruct w as [|c w']; [exact I|]. destruct ((lo <=? c) && (c <=? hi)); [|exact I].
        pose proof (ulen_pos c). apply inv_leaf; cbn [blen]; lia.
      * destruct (find_rule (pg_rules g) r) as [[m body]|]; [|exact I].
        eapply inv_match; [apply IHe | intros ts p' w' H | exact I].
        pose proof (inv_node r _ _ _ _ _ H). destruct m; try destruct (atom_eqb_atomic a); assumption.
      * destruct b; try (destruct w as [|c w']; [exact I|]; destruct (builtin_class _ c); [|exact I];
                         pose proof (ulen_pos c); apply inv_leaf; cbn [blen]; lia).
        -- destruct (p =? 0); [apply inv_ok_nil | exact I].
        -- destruct w; [|exact I]. destruct (atom_eqb_atomic a); [|apply inv_node]; apply inv_ok_nil.
        -- (* NEWLINE: "\n", "\r\n" or "\r", each character one byte long *)
           destruct w as [|c w']; [exact I|].
           assert (U10 : ulen 10 = 1) by reflexivity. assert (U13 : ulen 13 = 1) by reflexivity.
           destruct (c =? 10) eqn:E10; [apply N.eqb_eq in E10; subst c; apply inv_leaf; cbn [blen]; lia|].
           destruct (c =? 13) eqn:E13; [|exact I]. apply N.eqb_eq in E13. subst c.
           destruct w' as [|d w'']; [apply inv_leaf; cbn [blen]; lia|].
           destruct (d =? 10) eqn:D10; [apply N.eqb_eq in D10; subst d|]; apply inv_leaf; cbn [blen]; lia.
      * (* PSeq *) eapply inv_match; [apply IHe | intros | exact I].
        eapply inv_match; [apply IHs | intros | exact I].
        eapply inv_match; [apply IHe | intros | exact I]. eauto using inv_app.
      * (* PAlt *) eapply inv_match; [apply IHe | auto | apply IHe].
      * (* PStar *) eapply inv_match; [apply IHe | intros | apply inv_ok_nil].
        eapply inv_match; [apply IHm | intros | exact I]. eauto using inv_app.
      * (* PPlus *) eapply inv_match; [apply IHe | intros | exact I].
        eapply inv_match; [apply IHm | intros | exact I]. eauto using inv_app.
      * (* POpt *) eapply inv_match; [apply IHe | auto | apply inv_ok_nil].
      * (* PRep *) destruct n as [|[|n']]; [apply inv_ok_nil | apply IHe | apply IHe].
      * (* PAnd *) eapply inv_match; [apply IHe | intros; apply inv_ok_nil | exact I].
      * (* PNot *) eapply inv_match; [apply IHe | intros; exact I | apply inv_ok_nil].
    + intros x a p w. cbn [more]; fold (eval g) (skip g).
      eapply inv_match; [apply IHs | intros | apply inv_ok_nil].
      eapply inv_match; [apply IHe | intros | apply inv_ok_nil].
      eapply inv_match; [apply IHm | intros | exact I]. eauto using inv_app.
    + intros a p w. cbn [skip]; fold (eval g). destruct a; try apply inv_ok_nil. apply IHe.
Qed.

Inductive spans_in (lo hi : N) : list tree -> Prop :=
| si_nil : spans_in lo hi []
| si_cons : forall r s e ch ts, lo <= s -> s <= e -> e <= hi -> spans_in lo hi ch -> spans_in lo hi ts ->
            spans_in lo hi (Node r s e ch :: ts).

Lemma fwf_spans_in : forall lo hi ts, fwf lo hi ts -> forall lo' hi', lo' <= lo -> hi <= hi' -> spans_in lo' hi' ts.
Proof.
  induction 1 as [lo hi Hle|lo hi r s e ch ts Hs Hch IHch Hts IHts]; intros lo' hi' H1 H2; [constructor|].
  pose proof (fwf_le _ _ _ Hch). pose proof (fwf_le _ _ _ Hts).
  constructor; try lia; [apply IHch; lia | apply IHts; lia].
Qed.

Lemma eval_wf : forall f e a p w ts p' w',
  eval g f e a p w = Ok ts p' w' -> fwf p p' ts /\ p' + blen w' = p + blen w.
Proof.
  intros f e a p w ts p' w' H. pose proof (proj1 (inv_all f) e a p w) as X. rewrite H in X. exact X.
Qed.

End Proofs.

(* keep the kernel from unfolding [eval] along the (large, unary) fuel when it compares [peg_parse] with its body *)
Opaque fuel_for.
Theorem peg_tree_wf : forall g start w ts p' w',
  peg_parse g start w = Ok ts p' w' ->
  fwf 0 p' ts /\ spans_in 0 (blen w) ts /\ p' + blen w' = blen w.
Proof.
  intros g start w ts p' w' H. unfold peg_parse in H.
  destruct (eval_wf g _ _ _ _ _ _ _ _ H) as [I1 I2].
  split; [exact I1|]. split; [|lia].
  apply (fwf_spans_in _ _ _ I1); lia.
Qed.
Transparent fuel_for.

Definition front (rs : list N) (g : pgrammar) : pgrammar :=
  {| pg_rules := flat_map (fun r => match find_rule (pg_rules g) r with Some (m, e) => [(r, m, e)] | None => [] end) rs
                 ++ pg_rules g;
     pg_ws := pg_ws g; pg_comment := pg_comment g; pg_eoi := pg_eoi g |}.

Lemma find_rule_front : forall rs g r, find_rule (pg_rules (front rs g)) r = find_rule (pg_rules g) r.
Proof.
  intros rs g r. cbn [front pg_rules]. induction rs as [|r' rs IH]; [reflexivity|]. cbn [flat_map].
  destruct (find_rule (pg_rules g) r') as [[m e]|] eqn:E; [|exact IH].
  cbn [app find_rule]. destruct (N.eqb_spec r' r) as [<-|_]; [symmetry; exact E | exact IH].
Qed.

Theorem peg_matches_front : forall rs g r w, peg_matches (front rs g) r w = peg_matches g r w.
Proof.
  intros rs g r w. unfold peg_matches.
  rewrite (eval_ext g (front rs g) (find_rule_front rs g) eq_refl eq_refl eq_refl). reflexivity.
Qed.
