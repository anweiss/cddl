(* Correctness of the all-remainders recogniser of Cfg.v with respect to the derivation relation:
   soundness for every fuel, completeness whenever the fuel did not run out (flag = false).
   Valid for EVERY grammar (no non-left-recursion hypothesis is needed: on a left-recursive grammar the
   recogniser simply reports that the fuel ran out). *)
From Coq Require Import Lia PeanoNat.
From Cddl Require Import Grammar.Cfg.
Open Scope N_scope.

Lemma leqb_eq : forall a b, leqb a b = true <-> a = b.
Proof.
  induction a as [|x a IH]; destruct b as [|y b]; cbn; split; intro H; try congruence; try discriminate.
  - apply andb_true_iff in H. destruct H as [H1 H2]. apply N.eqb_eq in H1. apply IH in H2. congruence.
  - inversion H; subst. apply andb_true_iff. split. apply N.eqb_refl. apply IH. reflexivity.
Qed.

Lemma mem_In : forall x l, mem x l = true <-> In x l.
Proof.
  induction l as [|y l IH]; cbn.
  - split; [discriminate | tauto].
  - rewrite orb_true_iff, IH, leqb_eq. split; intros [H|H]; auto.
Qed.

Lemma add_In : forall x l y, In y (add x l) <-> y = x \/ In y l.
Proof.
  intros x l y. unfold add. destruct (mem x l) eqn:E.
  - apply mem_In in E. split; [auto | intros [->|H]; auto].
  - cbn. split; intros [H|H]; auto.
Qed.

Lemma union_In : forall l1 l2 y, In y (union l1 l2) <-> In y l1 \/ In y l2.
Proof.
  induction l1 as [|x l1 IH]; intros l2 y; cbn.
  - tauto.
  - fold (union l1 l2). rewrite add_In, IH. intuition (subst; auto).
Qed.

Lemma lunion_In : forall r1 r2 y, In y (fst (lunion r1 r2)) <-> In y (fst r1) \/ In y (fst r2).
Proof. intros. unfold lunion. cbn [fst]. apply union_In. Qed.

Lemma lunion_flag : forall r1 r2, snd (lunion r1 r2) = false <-> snd r1 = false /\ snd r2 = false.
Proof. intros. unfold lunion. cbn [snd]. apply orb_false_iff. Qed.

(* lbind is this over remainders, lalts over the productions of a name *)
Fixpoint bigU {A} (l : list A) (k : A -> lres) : lres :=
  match l with [] => ([], false) | x :: t => lunion (k x) (bigU t k) end.

Lemma bigU_In : forall A (l : list A) k y, In y (fst (bigU l k)) <-> exists x, In x l /\ In y (fst (k x)).
Proof.
  induction l as [|x l IH]; intros k y; cbn [bigU].
  - cbn. split; [tauto | intros [r [[] _]]].
  - rewrite lunion_In, IH. split.
    + intros [H|[r [H1 H2]]]; [exists x | exists r]; cbn; auto.
    + intros [r [[->|H1] H2]]; [left | right; exists r]; auto.
Qed.

Lemma bigU_flag : forall A (l : list A) k, snd (bigU l k) = false <-> forall x, In x l -> snd (k x) = false.
Proof.
  induction l as [|x l IH]; intros k; cbn [bigU].
  - cbn. split; [intros _ r [] | reflexivity].
  - rewrite lunion_flag, IH. split.
    + intros [H1 H2] r [->|H]; auto.
    + intros H. split; [apply H; left; reflexivity | intros r Hr; apply H; right; exact Hr].
Qed.

Lemma bigU_ext : forall A (l : list A) k k', (forall x, k x = k' x) -> bigU l k = bigU l k'.
Proof. intros A l k k' H. induction l as [|x l IH]; cbn [bigU]; [|rewrite H, IH]; reflexivity. Qed.

Lemma lbind_bigU : forall l k, lbind l k = bigU l k.
Proof. induction l as [|x l IH]; intros k; cbn [lbind bigU]; [|rewrite IH]; reflexivity. Qed.

Definition prods (n : N) (ps : cfg) : list aexp := map snd (filter (fun p => fst p =? n) ps).

Lemma prods_In : forall n ps e, In e (prods n ps) <-> In (n, e) ps.
Proof.
  intros n ps e. unfold prods. rewrite in_map_iff. split.
  - intros [[n' e'] [<- [H E]%filter_In]]. apply N.eqb_eq in E. cbn in *. subst n'. exact H.
  - intros H. exists (n, e). split; [reflexivity|]. apply filter_In. split; [exact H|apply N.eqb_refl].
Qed.

Lemma lalts_bigU : forall k n ps, lalts k n ps = bigU (prods n ps) k.
Proof.
  induction ps as [|[n' e'] ps IH]; [reflexivity|]. unfold prods. cbn [lalts filter fst].
  destruct (n' =? n); [cbn [map bigU snd]; fold (prods n ps); rewrite IH; reflexivity|exact IH].
Qed.

Lemma lbind_In : forall l k y, In y (fst (lbind l k)) <-> exists r, In r l /\ In y (fst (k r)).
Proof. intros l k y. rewrite lbind_bigU. apply bigU_In. Qed.

Lemma lbind_flag : forall l k, snd (lbind l k) = false <-> forall r, In r l -> snd (k r) = false.
Proof. intros l k. rewrite lbind_bigU. apply bigU_flag. Qed.

Lemma lalts_In : forall k n ps y, In y (fst (lalts k n ps)) <-> exists e, In (n, e) ps /\ In y (fst (k e)).
Proof.
  intros k n ps y. rewrite lalts_bigU, bigU_In.
  split; intros [e [H1 H2]]; exists e; (split; [apply prods_In|]; assumption).
Qed.

Lemma lalts_flag : forall k n ps, snd (lalts k n ps) = false <-> forall e, In (n, e) ps -> snd (k e) = false.
Proof.
  intros k n ps. rewrite lalts_bigU, bigU_flag. split; intros H e He; apply H, prods_In, He.
Qed.

Section Proofs.
Variable g : cfg.

Lemma ls_S : forall f e w, ls g (S f) e w =
  match e with
  | AEps => ([w], false)
  | ARng lo hi => match w with
                  | c :: w' => if (lo <=? c) && (c <=? hi) then ([w'], false) else ([], false)
                  | [] => ([], false)
                  end
  | ARef n => lalts (fun e' => ls g f e' w) n g
  | ASeq a b => let r1 := ls g f a w in let r2 := lbind (fst r1) (ls g f b) in (fst r2, snd r1 || snd r2)
  | AAlt a b => lunion (ls g f a w) (ls g f b w)
  | AStar a => lstar g f a [w]
  | ALook p => if p w then ([w], false) else ([], false)
  end.
Proof. reflexivity. Qed.

Lemma lstar_S : forall f a F, lstar g (S f) a F =
  match F with
  | [] => ([], false)
  | _ => let r1 := lbind F (fun x => let r := ls g f a x in (filter (shorter x) (fst r), snd r)) in
         let r2 := lstar g f a (fst r1) in (union F (fst r2), snd r1 || snd r2)
  end.
Proof. reflexivity. Qed.

Lemma sound_both : forall f,
  (forall e w r, In r (fst (ls g f e w)) -> exists u, w = u ++ r /\ Der g e u r) /\
  (forall a F r, In r (fst (lstar g f a F)) -> exists x u, In x F /\ x = u ++ r /\ Der g (AStar a) u r).
Proof.
  induction f as [|f [IH1 IH2]].
  - split; cbn; tauto.
  - split.
    + intros e w r H. rewrite ls_S in H. destruct e as [|lo hi|n|a b|a b|a|p].
      * cbn in H. destruct H as [<-|[]]. exists []. split; [reflexivity | constructor].
      * destruct w as [|c w']; [cbn in H; tauto|].
        destruct ((lo <=? c) && (c <=? hi)) eqn:E; cbn in H; [|tauto].
        destruct H as [<-|[]]. apply andb_true_iff in E. destruct E as [E1 E2].
        apply N.leb_le in E1. apply N.leb_le in E2. exists [c]. split; [reflexivity | constructor; assumption].
      * apply lalts_In in H. destruct H as [e [H1 H2]]. apply IH1 in H2. destruct H2 as [u [-> D]].
        exists u. split; [reflexivity | econstructor; eassumption].
      * cbn [fst] in H. apply lbind_In in H. destruct H as [r1 [H1 H2]].
        apply IH1 in H1. destruct H1 as [u [-> D1]]. apply IH1 in H2. destruct H2 as [v [-> D2]].
        exists (u ++ v). split; [rewrite app_assoc; reflexivity | constructor; assumption].
      * apply lunion_In in H. destruct H as [H|H]; apply IH1 in H; destruct H as [u [-> D]]; exists u; split; auto.
        apply DAltL; assumption. apply DAltR; assumption.
      * apply IH2 in H. destruct H as [x [u [[<-|[]] [-> D]]]]. exists u. split; auto.
      * destruct (p w) eqn:E; cbn in H; [|tauto]. destruct H as [<-|[]]. exists []. split; [reflexivity | constructor; exact E].
    + intros a F r H. rewrite lstar_S in H. destruct F as [|x0 F0]; [cbn in H; tauto|].
      set (F := x0 :: F0) in *. cbn [fst] in H. apply union_In in H. destruct H as [H|H].
      * exists r, []. split; [exact H | split; [reflexivity | constructor]].
      * apply IH2 in H. destruct H as [y [v [Hy [-> Dv]]]].
        apply lbind_In in Hy. destruct Hy as [x [Hx Hy]]. cbn [fst] in Hy.
        apply filter_In in Hy. destruct Hy as [Hy _]. apply IH1 in Hy. destruct Hy as [u [-> Du]].
        exists (u ++ v ++ r), (u ++ v). split; [exact Hx|]. split; [rewrite app_assoc; reflexivity|].
        constructor; assumption.
Qed.

Theorem ls_sound : forall f e w r, In r (fst (ls g f e w)) -> exists u, w = u ++ r /\ Der g e u r.
Proof. intros f. apply (sound_both f). Qed.

(* By induction on the derivation, for every fuel at once: a flag that is false at the root is false at every call below
   it, so each induction hypothesis applies at the fuel the recogniser actually passes down, and fuel 0 raises the flag.
   In a repetition an empty iteration is not searched for (only strictly shorter remainders are kept): it is skipped, at
   the same fuel.  The second part is the same claim for [lstar], which works on a SET of remainders: it only speaks when
   e is a repetition, and is what the induction hypothesis for the rest of the iterations (DStarS) has to be. *)
Lemma complete_both : forall e u r, Der g e u r ->
  (forall f, snd (ls g f e (u ++ r)) = false -> In r (fst (ls g f e (u ++ r)))) /\
  (forall a, e = AStar a -> forall f F, In (u ++ r) F -> snd (lstar g f a F) = false -> In r (fst (lstar g f a F))).
Proof.
  assert (star_both : forall a w r,
    (forall f F, In w F -> snd (lstar g f a F) = false -> In r (fst (lstar g f a F))) ->
    (forall f, snd (ls g f (AStar a) w) = false -> In r (fst (ls g f (AStar a) w))) /\
    (forall a', AStar a = AStar a' -> forall f F, In w F -> snd (lstar g f a' F) = false -> In r (fst (lstar g f a' F)))).
  { intros a w r H. split; [|intros a' E; inversion E; subst a'; exact H].
    intros [|f] Hf; [discriminate|]. rewrite ls_S in *. apply H; [left; reflexivity|exact Hf]. }
  induction 1 as [r|lo hi c r H1 H2|n e w r Hin D [IH _]|a b u v r Da [IHa _] Db [IHb _]|a b u r D [IH _]|a b u r D [IH _]
                  |a r|a u v r Da [IHa _] Ds [_ IHs]|p r Hp].
  1-6, 9: split; [intros [|f] Hf; [discriminate|]; rewrite ls_S in *|discriminate].
  - left. reflexivity.
  - apply N.leb_le in H1, H2. cbn [app]. rewrite H1, H2. left. reflexivity.
  - apply lalts_In. exists e. split; [exact Hin|]. apply IH. exact (proj1 (lalts_flag _ _ _) Hf e Hin).
  - cbn [fst snd] in *. apply orb_false_iff in Hf as [Ha Hb]. rewrite <- app_assoc in *. apply IHa in Ha.
    apply lbind_In. exists (v ++ r). split; [exact Ha|]. apply IHb. exact (proj1 (lbind_flag _ _) Hb _ Ha).
  - apply lunion_flag in Hf as [Ha _]. apply lunion_In. left. apply IH, Ha.
  - apply lunion_flag in Hf as [_ Hb]. apply lunion_In. right. apply IH, Hb.
  - cbn [app]. rewrite Hp. left. reflexivity.
  - apply star_both. intros [|f] F Hin Hf; [discriminate|]. rewrite lstar_S in *. destruct F; [destruct Hin|].
    apply union_In. left. exact Hin.
  - apply star_both. destruct u as [|c u']; [exact (IHs a eq_refl)|].
    intros [|f] F Hin Hf; [discriminate|]. rewrite lstar_S in *. destruct F as [|x0 F0]; [destruct Hin|].
    set (F := x0 :: F0) in *. cbn [fst snd] in *. apply orb_false_iff in Hf as [Ha Hs].
    pose proof (proj1 (lbind_flag _ _) Ha _ Hin) as Hx. cbn [snd] in Hx.
    apply union_In. right. apply (IHs a eq_refl); [|exact Hs].
    apply lbind_In. exists (((c :: u') ++ v) ++ r). split; [exact Hin|]. cbn [fst]. apply filter_In.
    rewrite <- app_assoc in *. split.
    + apply IHa, Hx.
    + apply Nat.ltb_lt. cbn [app length]. rewrite !app_length. lia.
Qed.

Theorem ls_complete : forall f e w u r,
  snd (ls g f e w) = false -> Der g e u r -> w = u ++ r -> In r (fst (ls g f e w)).
Proof. intros f e w u r Hflag D ->. exact (proj1 (complete_both e u r D) f Hflag). Qed.

Theorem recognise_correct : forall s w b, recognise g s w = Some b -> (b = true <-> Der g (ARef s) w []).
Proof.
  intros s w b. unfold recognise. set (r := ls g (ls_fuel w) (ARef s) w).
  destruct (snd r) eqn:Hflag; [discriminate|]. intros E. inversion E; subst b. clear E.
  rewrite mem_In. split.
  - intros H. apply ls_sound in H. destruct H as [u [E D]]. rewrite app_nil_r in E. subst u. exact D.
  - intros D. apply (ls_complete (ls_fuel w) (ARef s) w w []); auto. rewrite app_nil_r. reflexivity.
Qed.

End Proofs.
