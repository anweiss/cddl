(* Theorems about the GENERATED grammar (Generated/CddlPest.v = /repo/cddl.pest as translated on this run):
   - token classes: the PEG rule and the ABNF rule accept the same strings, for ALL strings over a stated alphabet
     up to a stated length (bounded-exhaustive, checked by vm_compute and lifted to a quantified statement; the
     ABNF side is evaluated by the table-driven recogniser of CfgTable.v and lifted to the derivation relation by the
     recogniser's correctness theorem);
   - the control-operator names of the grammar are exactly the registered names;
   - witnesses of the known deviations, and of the refutation of full language equality.
   A change of cddl.pest that alters any of these facts breaks this file. *)
From Coq Require Import String Lia.
From Cddl Require Import Grammar.PegRun Grammar.Cfg Grammar.CfgProofs Grammar.Abnf8610 Grammar.Deviations
  Generated.CddlPest Grammar.Tokens Grammar.CfgTable Grammar.PegProofs.
Open Scope N_scope.

Lemma forall_words_spec : forall sigma n p suffix,
  forall_words sigma n p suffix = true ->
  forall pre, Forall (fun c => In c sigma) pre -> (length pre <= n)%nat -> p (rev pre ++ suffix) = true.
Proof.
  intros sigma n p. induction n as [|n IH]; intros suffix H pre Hpre Hlen; cbn [forall_words] in H;
    apply andb_true_iff in H; destruct H as [H0 H1].
  - destruct pre; [exact H0 | cbn in Hlen; lia].
  - destruct pre as [|c pre]; [exact H0|].
    inversion Hpre as [|c' pre' Hc Hrest]; subst.
    rewrite forallb_forall in H1. specialize (H1 c Hc).
    cbn [rev]. rewrite <- app_assoc. cbn [app].
    apply (IH (c :: suffix) H1 pre Hrest). cbn in Hlen. lia.
Qed.

Lemma forall_words_all : forall sigma n p,
  forall_words sigma n p [] = true ->
  forall w, Forall (fun c => In c sigma) w -> (length w <= n)%nat -> p w = true.
Proof.
  intros sigma n p H w Hw Hlen.
  pose proof (forall_words_spec sigma n p [] H (rev w)) as X.
  rewrite rev_involutive, app_nil_r in X. apply X.
  - apply Forall_rev. exact Hw.
  - rewrite rev_length. exact Hlen.
Qed.

(* the kernel must not unfold the interpreters along their (large, unary) fuel when it compares terms;
   vm_compute is not affected by opacity *)
#[local] Opaque fuel_for ls_fuel peg_matches recognise trecognise peg_parse.

(* the table is an argument, so that a sweep builds it once and not at every word *)
Definition agrees (oa : list N -> option bool) (t : ptab) (nt : N) (w : list N) : bool :=
  match oa w, trecognise (plook t) nt w with
  | Some a, Some b => Bool.eqb a b
  | _, _ => false
  end.

Lemma agrees_iff : forall oa g nt w, agrees oa (table g) nt w = true ->
  (oa w = Some true <-> Der g (ARef nt) w []).
Proof.
  intros oa g nt w H. unfold agrees in H. destruct (oa w) as [a|]; [|discriminate].
  destruct (trecognise (plook (table g)) nt w) as [b|] eqn:E; [|discriminate].
  apply Bool.eqb_prop in H. subst b. rewrite <- (trecognise_correct g nt w a E). split; congruence.
Qed.

Lemma sweep_iff : forall oa g nt sigma n, forall_words sigma n (agrees oa (table g) nt) [] = true ->
  forall w, Forall (fun c => In c sigma) w -> (length w <= n)%nat ->
  (oa w = Some true <-> Der g (ARef nt) w []).
Proof.
  intros oa g nt sigma n H w Hw Hlen. apply agrees_iff.
  exact (forall_words_all sigma n _ H w Hw Hlen).
Qed.

(* a token rule is swept on the grammar with the rules it can reach put in front (PegProofs.front: any list is sound,
   the right one spares the scan of the rule list at every reference) *)
Lemma peg_sweep_iff : forall rs pg r g nt sigma n,
  forall_words sigma n (agrees (peg_matches (front rs pg) r) (table g) nt) [] = true ->
  forall w, Forall (fun c => In c sigma) w -> (length w <= n)%nat ->
  (peg_matches pg r w = Some true <-> Der g (ARef nt) w []).
Proof.
  intros rs pg r g nt sigma n H w Hw Hlen. rewrite <- (peg_matches_front rs).
  exact (sweep_iff _ g nt sigma n H w Hw Hlen).
Qed.

Lemma probes_iff : forall oa g nt ws, forallb (agrees oa (table g) nt) ws = true ->
  forall w, In w ws -> (oa w = Some true <-> Der g (ARef nt) w []).
Proof. intros oa g nt ws H w Hin. apply agrees_iff. exact (proj1 (forallb_forall _ _) H w Hin). Qed.

Theorem uint_lang_eq_bounded : forall w, Forall (fun c => In c sig_uint) w -> (length w <= 3)%nat ->
  (peg_matches cddl_pest r_uint_value w = Some true <-> Der abnf_spec (ARef n_uint) w []).
Proof. apply (peg_sweep_iff [r_uint_value; r_DIGIT]). vm_compute. reflexivity. Qed.

Theorem occur_lang_eq_bounded : forall w, Forall (fun c => In c sig_occur) w -> (length w <= 3)%nat ->
  (peg_matches cddl_pest r_occur w = Some true <-> Der abnf_spec (ARef n_occur) w []).
Proof. apply (peg_sweep_iff [r_occur; r_occur_exact; r_occur_range; r_occur_zero_or_more; r_occur_one_or_more; r_occur_optional; r_uint_value; r_DIGIT]). vm_compute. reflexivity. Qed.

Theorem number_lang_eq_bounded : forall w, Forall (fun c => In c sig_number) w -> (length w <= 3)%nat ->
  (peg_matches cddl_pest r_number w = Some true <-> Der g_number (ARef n_number) w []).
Proof. apply (peg_sweep_iff [r_number; r_hexfloat; r_float_value; r_int_value; r_uint_value; r_DIGIT]). vm_compute. reflexivity. Qed.

Theorem id_lang_eq_bounded : forall w, Forall (fun c => In c sig_id) w -> (length w <= 3)%nat ->
  (peg_matches cddl_pest r_id w = Some true <-> Der g_id (ARef n_idns) w []).
Proof. apply (peg_sweep_iff [r_id; r_EALPHA_START; r_EALPHA; r_ALPHA; r_DIGIT]). vm_compute. reflexivity. Qed.

Theorem text_lang_eq_bounded : forall w, Forall (fun c => In c sig_text) w -> (length w <= 3)%nat ->
  (peg_matches cddl_pest r_text_value w = Some true <-> Der g_text (ARef n_text) w []).
Proof. apply (peg_sweep_iff [r_text_value; r_text_inner; r_text_char; r_escape_sequence]). vm_compute. reflexivity. Qed.

Theorem text_escapes_lang_eq : forall w, In w text_probe ->
  (peg_matches cddl_pest r_text_value w = Some true <-> Der g_text (ARef n_text) w []).
Proof. apply (probes_iff (peg_matches cddl_pest r_text_value)). vm_compute. reflexivity. Qed.

Theorem bytes_lang_eq_bounded : forall w, Forall (fun c => In c sig_bytes) w -> (length w <= 3)%nat ->
  (peg_matches cddl_pest r_bytes_value w = Some true <-> Der g_bytes (ARef n_bytes) w []).
Proof. apply (peg_sweep_iff [r_bytes_value; r_bytes_b64; r_bytes_b16; r_bytes_h_quoted; r_bytes_utf8; r_BASE64_INNER; r_HEX_INNER; r_BYTE_STRING_INNER; r_QUOTE]). vm_compute. reflexivity. Qed.

Theorem bytes_probe_lang_eq : forall w, In w bytes_probe ->
  (peg_matches cddl_pest r_bytes_value w = Some true <-> Der g_bytes (ARef n_bytes) w []).
Proof. apply (probes_iff (peg_matches cddl_pest r_bytes_value)). vm_compute. reflexivity. Qed.

(* blanks and comments, as whole documents (covers tab, a final comment without line break, lone CR) *)
Theorem blank_lang_eq_bounded : forall w, Forall (fun c => In c sig_blank) w -> (length w <= 3)%nat ->
  (peg_matches cddl_pest r_cddl w = Some true <-> Der g_blank (ARef n_cddl) w []).
Proof. apply (sweep_iff (peg_matches cddl_pest r_cddl)). vm_compute. reflexivity. Qed.

Theorem control_names_ok : same_set generated_control_names (map s2n registered_controls) = true.
Proof. vm_compute. reflexivity. Qed.

Theorem control_op_lang_eq : forall w, In w ctl_probe ->
  (peg_matches cddl_pest r_control_op w = Some true <-> Der g_ctl (ARef n_ctlop) w []).
Proof. apply (probes_iff (peg_matches cddl_pest r_control_op)). vm_compute. reflexivity. Qed.

(* every registered name is accepted as a whole control operator (".cborseq" included: control_name tries it before "cbor") *)
Theorem control_names_reachable :
  forallb (fun n => match peg_matches cddl_pest r_control_op (46 :: s2n n) with
                    | Some b => b
                    | None => false
                    end) registered_controls = true.
Proof. vm_compute. reflexivity. Qed.

Lemma derivable : forall g s w, trecognise (plook (table g)) s w = Some true -> Der g (ARef s) w [].
Proof. intros g s w H. apply (trecognise_correct g s w true H). reflexivity. Qed.
Lemma underivable : forall g s w, trecognise (plook (table g)) s w = Some false -> ~ Der g (ARef s) w [].
Proof. intros g s w H D. apply (trecognise_correct g s w false H) in D. discriminate. Qed.

Theorem id_lang_refuted : exists w, peg_matches cddl_pest r_id w = Some false /\ Der abnf_spec (ARef n_id) w [].
Proof. exists (s2n "a--b"). split; [vm_compute; reflexivity | apply derivable; vm_compute; reflexivity]. Qed.

Theorem text_lang_refuted : exists w, peg_matches cddl_pest r_text_value w = Some true /\ ~ Der abnf_spec (ARef n_text) w [].
Proof. exists (s2n """\ud800"""). split; [vm_compute; reflexivity | apply underivable; vm_compute; reflexivity]. Qed.

Theorem bytes_lang_refuted : exists w, peg_matches cddl_pest r_bytes_value w = Some false /\ Der abnf_spec (ARef n_bytes) w [].
Proof. exists (s2n "'it\'s'"). split; [vm_compute; reflexivity | apply derivable; vm_compute; reflexivity]. Qed.

Theorem number_lang_refuted : exists w, peg_matches cddl_pest r_number w = Some false /\ Der abnf_spec (ARef n_number) w [].
Proof. exists (s2n "0b1.5"). split; [vm_compute; reflexivity | apply derivable; vm_compute; reflexivity]. Qed.

(* [witness_ok] with the specification's table built once for all rows *)
Definition witness_ok_t (spec : ptab) (x : N * list N * bool) : bool :=
  let '(k, w, b) := x in
  match model_accepts w, trecognise (plook spec) n_cddl w, trecognise (plook (table (variant (N.shiftl 1 k)))) n_cddl w with
  | Some m, Some s, Some v => Bool.eqb m b && Bool.eqb s (negb b) && Bool.eqb v b
  | _, _, _ => false
  end.

(* on every witness the crate model and the specification disagree, and switching that one deviation on in the
   specification grammar restores agreement *)
Theorem deviation_witnesses_ok : forallb witness_ok deviation_witnesses = true.
Proof.
  apply forallb_forall. intros [[k w] b] Hx.
  assert (E : witness_ok (k, w, b) = witness_ok_t (table abnf_spec) (k, w, b))
    by (unfold witness_ok, witness_ok_t, variant_accepts; rewrite !trecognise_eq; reflexivity).
  rewrite E. revert Hx. generalize (k, w, b). apply forallb_forall. vm_compute. reflexivity.
Qed.

Lemma witness_facts : forall i k w b, nth_error deviation_witnesses i = Some (k, w, b) ->
  model_accepts w = Some b /\ (negb b = true <-> Der abnf_spec (ARef n_cddl) w []).
Proof.
  intros i k w b H. apply nth_error_In in H.
  pose proof (proj1 (forallb_forall _ _) deviation_witnesses_ok _ H) as W. unfold witness_ok in W.
  destruct (model_accepts w) as [m|]; [|discriminate].
  destruct (recognise abnf_spec n_cddl w) as [s|] eqn:E; [|discriminate].
  destruct (variant_accepts _ w) as [v|]; [|discriminate].
  apply andb_prop in W as [W _]. apply andb_prop in W as [W1 W2].
  apply Bool.eqb_prop in W1, W2. subst m s. split; [reflexivity | exact (recognise_correct _ _ _ _ E)].
Qed.

(* C03, language part, is FALSE of the model (and of the crate: the witnesses are replayed on the real parser by
   the check): a text the crate model accepts and the ABNF does not derive (the #1(int) row of the table), and one
   the other way round (the last row) *)
Theorem language_refuted :
  (exists w, model_accepts w = Some true /\ ~ Der abnf_spec (ARef n_cddl) w []) /\
  (exists w, model_accepts w = Some false /\ Der abnf_spec (ARef n_cddl) w []).
Proof.
  (* rows 13 and 18, counted from 0: "a = #1(int)" (accepted) and "a = [(a) .size 3]" (rejected); any row with the same
     verdict would do, and a row with the other verdict in that place makes [exact M1] / [exact M2] fail *)
  destruct (witness_facts 13 _ _ _ eq_refl) as [M1 D1]. destruct (witness_facts 18 _ _ _ eq_refl) as [M2 D2]. split.
  - eexists. split; [exact M1 | intros D; apply D1 in D; discriminate].
  - eexists. split; [exact M2 | apply D2; reflexivity].
Qed.

(* ... and what does hold in a small scope: on every string of at most 3 characters over the alphabet "a=/(:1 $"
   the crate model accepts exactly what the ABNF with ALL known deviations switched on derives *)
Theorem language_small_scope : forall w, Forall (fun c => In c sig_doc) w -> (length w <= 3)%nat ->
  (model_accepts w = Some true <-> Der (variant all_deviations) (ARef n_cddl) w []).
Proof. apply (sweep_iff model_accepts). vm_compute. reflexivity. Qed.

(* non-vacuity: a document with generics, a map with all member-key forms, occurrences and a control operator *)
Definition example_doc : list N := s2n "m<k> = {* k => any, ? a: int .size 2, 1: [2*3 tstr]}".
Example example_accepted : model_accepts example_doc = Some true /\ Der abnf_spec (ARef n_cddl) example_doc [].
Proof. split; [vm_compute; reflexivity | apply derivable; vm_compute; reflexivity]. Qed.
