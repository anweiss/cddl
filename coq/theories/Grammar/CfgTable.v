(* The recogniser of Cfg.v with the productions of a name given by a lookup function instead of a scan of the
   grammar: same results whenever the lookup returns the grammar's productions (lt_ls).  Then a binary trie to look
   them up in.  The bounded sweeps of TokenProofs.v evaluate this one: under the kernel's evaluation the scan of all
   productions at every rule reference is what the recogniser of Cfg.v spends its time on. *)
From Cddl Require Import Grammar.Cfg Grammar.CfgProofs.
Open Scope N_scope.

Section Lookup.
Variable look : N -> list aexp.

Fixpoint lt (fuel : nat) (e : aexp) (w : list N) {struct fuel} : lres :=
  match fuel with
  | O => ([], true)
  | S f =>
    match e with
    | AEps => ([w], false)
    | ARng lo hi =>
        match w with
        | c :: w' => if (lo <=? c) && (c <=? hi) then ([w'], false) else ([], false)
        | [] => ([], false)
        end
    | ARef n => bigU (look n) (fun e' => lt f e' w)
    | ASeq a b => let r1 := lt f a w in
                  let r2 := lbind (fst r1) (lt f b) in (fst r2, snd r1 || snd r2)
    | AAlt a b => lunion (lt f a w) (lt f b w)
    | AStar a => ltstar f a [w]
    | ALook p => if p w then ([w], false) else ([], false)
    end
  end
with ltstar (fuel : nat) (a : aexp) (F : list (list N)) {struct fuel} : lres :=
  match fuel with
  | O => ([], true)
  | S f =>
    match F with
    | [] => ([], false)
    | _ => let r1 := lbind F (fun x => let r := lt f a x in (filter (shorter x) (fst r), snd r)) in
           let r2 := ltstar f a (fst r1) in
           (union F (fst r2), snd r1 || snd r2)
    end
  end.

Definition trecognise (start : N) (w : list N) : option bool :=
  let r := lt (ls_fuel w) (ARef start) w in
  if snd r then None else Some (mem [] (fst r)).

Variable g : cfg.
Hypothesis look_prods : forall n, look n = prods n g.

Lemma lt_ls : forall f,
  (forall e w, lt f e w = ls g f e w) /\ (forall a F, ltstar f a F = lstar g f a F).
Proof.
  induction f as [|f [IH1 IH2]]; [split; reflexivity|]. split.
  - intros e w. destruct e as [|lo hi|n|a b|a b|a|p]; cbn [lt ls]; try reflexivity.
    + rewrite lalts_bigU, look_prods. apply bigU_ext. intros e. apply IH1.
    + rewrite IH1, !lbind_bigU, (bigU_ext _ _ _ _ (IH1 b)). reflexivity.
    + rewrite !IH1. reflexivity.
    + apply IH2.
  - intros a F. cbn [ltstar lstar]. destruct F as [|x F0]; [reflexivity|]. rewrite !lbind_bigU.
    rewrite (bigU_ext _ _ _ (fun x => let r := ls g f a x in (filter (shorter x) (fst r), snd r))).
    + cbv zeta. rewrite IH2. reflexivity.
    + intros y. rewrite IH1. reflexivity.
Qed.

End Lookup.

Inductive ptab := PLeaf | PNode (l : ptab) (v : list aexp) (r : ptab).

Fixpoint pget (t : ptab) (p : positive) : list aexp :=
  match t with
  | PLeaf => []
  | PNode l v r => match p with xH => v | xO q => pget l q | xI q => pget r q end
  end.

Fixpoint padd (p : positive) (e : aexp) (t : ptab) : ptab :=
  let '(l, v, r) := match t with PLeaf => (PLeaf, [], PLeaf) | PNode l v r => (l, v, r) end in
  match p with
  | xH => PNode l (e :: v) r
  | xO q => PNode (padd q e l) v r
  | xI q => PNode l v (padd q e r)
  end.

Definition plook (t : ptab) (n : N) : list aexp := pget t (N.succ_pos n).
Definition table (g : cfg) : ptab := fold_right (fun p t => padd (N.succ_pos (fst p)) (snd p) t) PLeaf g.

Lemma pget_padd : forall p e t q, pget (padd p e t) q = if Pos.eqb p q then e :: pget t q else pget t q.
Proof. induction p as [p IH|p IH|]; intros e [|l v r] [q|q|]; cbn; rewrite ?IH; reflexivity. Qed.

Lemma succ_pos_eqb : forall a b, Pos.eqb (N.succ_pos a) (N.succ_pos b) = (a =? b).
Proof.
  intros a b. apply eq_true_iff_eq. rewrite Pos.eqb_eq, N.eqb_eq. split; [|congruence].
  intros H. apply N.succ_inj. rewrite <- !N.succ_pos_spec, H. reflexivity.
Qed.

Lemma plook_table : forall g n, plook (table g) n = prods n g.
Proof.
  intros g n. unfold plook. induction g as [|[n' e'] g IH]; [reflexivity|]. unfold prods.
  cbn [table fold_right fst snd filter]. fold (table g). rewrite pget_padd, succ_pos_eqb, IH.
  destruct (n' =? n); reflexivity.
Qed.

Theorem trecognise_eq : forall g s w, trecognise (plook (table g)) s w = recognise g s w.
Proof. intros. unfold trecognise, recognise. rewrite (proj1 (lt_ls _ g (plook_table g) _)). reflexivity. Qed.

Theorem trecognise_correct : forall g s w b,
  trecognise (plook (table g)) s w = Some b -> (b = true <-> Der g (ARef s) w []).
Proof. intros g s w b. rewrite trecognise_eq. apply recognise_correct. Qed.
