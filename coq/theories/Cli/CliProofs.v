(* C18 - proofs about Cli/Cli.v. [run] looks at one bit of each outcome, [passes] (run_cons); everything about reports
   and exit status is an induction over the work list through that equation. *)
From Coq Require Import List NArith Bool.
From Cddl Require Import Cli.Cli.
Import ListNotations.
Open Scope N_scope.

Section Proofs.
Variable lib : call -> bool.

Notation step := (step lib).
Notation run := (run lib).
Notation validate := (validate lib).
Notation reaches := (reaches lib).
Notation passes := (passes lib).
Notation report a := (fun x => (x, step a x)).

Definition expected (a : vargs) (x : item) : bool := lib (expected_call a (it_route x) (it_src x)).

(* [passes] is the one bit of an outcome that [run] looks at *)
Lemma run_cons : forall a x t,
  run a (x :: t) =
  if passes a x then ((x, step a x) :: fst (run a t), snd (run a t)) else ([(x, step a x)], true).
Proof.
  intros a x t. cbn [Cli.run]. unfold Cli.passes.
  destruct (step a x), (v_ci a), (run a t); reflexivity.
Qed.

Lemma passes_false : forall a x,
  passes a x = false <-> if v_ci a then step a x <> OSucc else step a x = OIoErr.
Proof.
  intros a x. unfold Cli.passes. destruct (step a x), (v_ci a); cbn; split; congruence.
Qed.

Lemma run_app : forall a pre l, reaches a pre = true ->
  run a (pre ++ l) = (map (report a) pre ++ fst (run a l), snd (run a l)).
Proof.
  intros a pre l; induction pre as [|y t IH]; intros H.
  - apply surjective_pairing.
  - apply andb_true_iff in H as [Hy Ht]. cbn [app]. rewrite run_cons, Hy, (IH Ht). reflexivity.
Qed.

Lemma run_all : forall a l, reaches a l = true -> run a l = (map (report a) l, false).
Proof. intros a l H. rewrite <- (app_nil_r l) at 1. rewrite (run_app a l [] H). cbn. now rewrite app_nil_r. Qed.

Lemma run_stop : forall a pre x post, reaches a pre = true -> passes a x = false ->
  run a (pre ++ x :: post) = (map (report a) pre ++ [(x, step a x)], true).
Proof. intros a pre x post Hpre Hx. rewrite (run_app a pre _ Hpre), run_cons, Hx. reflexivity. Qed.

(* reports are the documents of a prefix of the work list, in order, each with its own outcome:
   nothing is skipped, reordered or reported twice *)
Lemma run_prefix : forall a l, exists k, fst (run a l) = map (report a) (firstn k l).
Proof.
  intros a l; induction l as [|y t [k IH]]; [exists 0%nat; reflexivity|].
  rewrite run_cons. destruct (passes a y); [exists (S k) | exists 1%nat]; cbn [fst firstn map]; [rewrite IH|]; reflexivity.
Qed.

Lemma run_reports_step : forall a l x o, In (x, o) (fst (run a l)) -> o = step a x /\ In x l.
Proof.
  intros a l x o H. destruct (run_prefix a l) as [k E]. rewrite E in H.
  apply in_map_iff in H as (y & Heq & Hy). injection Heq as <- <-. split; [reflexivity|].
  rewrite <- (firstn_skipn k l). apply in_or_app. left. exact Hy.
Qed.

Lemma run_fail_iff : forall a l,
  snd (run a l) = true <-> exists x, In x l /\ if v_ci a then step a x <> OSucc else step a x = OIoErr.
Proof.
  intros a l. setoid_rewrite <- passes_false. rewrite <- Exists_exists. induction l as [|y t IH].
  - rewrite Exists_nil. split; [discriminate | contradiction].
  - rewrite Exists_cons, run_cons. destruct (passes a y); cbn [snd]; [rewrite IH|]; intuition discriminate.
Qed.

Lemma validate_reports : forall a,
  r_reports (validate a) = if schema_ok (v_schema a) then fst (run a (todo a)) else [].
Proof.
  intros a. unfold Cli.validate, schema_ok, schema_root. destruct (v_schema a) as [| | |rs]; try reflexivity.
  destruct (root_index rs); [destruct (run a (todo a))|]; reflexivity.
Qed.

Lemma validate_fail : forall a,
  r_fail (validate a) =
  if schema_ok (v_schema a) then snd (run a (todo a)) else match v_schema a with SMissing => v_ci a | _ => true end.
Proof.
  intros a. unfold Cli.validate, schema_ok, schema_root. destruct (v_schema a) as [| | |rs]; try reflexivity.
  destruct (root_index rs); [destruct (run a (todo a))|]; reflexivity.
Qed.

(* every route makes exactly the call the property asks for *)
Lemma made_is_expected : forall a x,
  lib (made_call a (it_route x) (it_src x)) = expected a x.
Proof.
  intros a x. unfold expected, Cli.made_call, expected_call. destruct (it_route x); reflexivity.
Qed.

Lemma step_succ : forall a x, step a x = OSucc <-> usable x = true /\ expected a x = true.
Proof.
  intros a x. rewrite <- made_is_expected. unfold Cli.step, usable.
  destruct (present _ _), (readable _ _), (lib _); cbn; split; intuition discriminate.
Qed.

Lemma step_not_succ : forall a x, step a x <> OSucc <-> usable x = false \/ expected a x = false.
Proof. intros a x. rewrite step_succ. destruct (usable x), (expected a x); intuition discriminate. Qed.

(* soundness of a success report needs no reachability premise *)
Theorem report_sound : forall a x,
  In (x, OSucc) (r_reports (validate a)) ->
  In x (todo a) /\ usable x = true /\ expected a x = true.
Proof.
  intros a x Hin. rewrite validate_reports in Hin. destruct (schema_ok (v_schema a)); [|contradiction].
  apply run_reports_step in Hin as [Hst Hin]. symmetry in Hst. apply step_succ in Hst. tauto.
Qed.

Theorem report_iff_lib : forall a pre x post,
  schema_ok (v_schema a) = true -> todo a = pre ++ x :: post -> reaches a pre = true -> usable x = true ->
  (In (x, OSucc) (r_reports (validate a)) <-> expected a x = true).
Proof.
  intros a pre x post Hs Htodo Hre Hu. split.
  - intros Hin. apply (report_sound a x Hin).
  - intros He. assert (Hst : step a x = OSucc) by (apply step_succ; auto).
    rewrite validate_reports, Hs, Htodo, (run_app a pre _ Hre), run_cons, <- Hst.
    apply in_or_app. right. destruct (passes a x); left; reflexivity.
Qed.

Theorem reports_prefix : forall a, exists k,
  r_reports (validate a) = map (report a) (firstn k (todo a)).
Proof.
  intros a. rewrite validate_reports. destruct (schema_ok (v_schema a)); [apply run_prefix | exists 0%nat; reflexivity].
Qed.

Theorem noci_all_reported : forall a, v_ci a = false -> schema_ok (v_schema a) = true ->
  (forall x, In x (todo a) -> step a x <> OIoErr) ->
  r_reports (validate a) = map (report a) (todo a).
Proof.
  intros a Hci Hs Hno. rewrite validate_reports, Hs, run_all; [reflexivity|].
  apply forallb_forall. intros x Hx. destruct (passes a x) eqn:E; [reflexivity|].
  apply passes_false in E. rewrite Hci in E. elim (Hno x Hx E).
Qed.

Theorem ci_stops_at_first_failure : forall a pre x post, v_ci a = true -> schema_ok (v_schema a) = true ->
  todo a = pre ++ x :: post -> (forall y, In y pre -> step a y = OSucc) -> step a x <> OSucc ->
  r_reports (validate a) = map (report a) pre ++ [(x, step a x)]
  /\ r_fail (validate a) = true.
Proof.
  intros a pre x post Hci Hs Htodo Hpre Hx. rewrite validate_reports, validate_fail, Hs, Htodo, run_stop; [split; reflexivity| |].
  - apply forallb_forall. intros y Hy. unfold Cli.passes. now rewrite (Hpre y Hy).
  - apply passes_false. now rewrite Hci.
Qed.

Lemma exit_iff : forall a,
  r_fail (validate a) = true <->
  if schema_ok (v_schema a)
  then exists x, In x (todo a) /\ if v_ci a then step a x <> OSucc else step a x = OIoErr
  else v_ci a = true \/ v_schema a <> SMissing.
Proof.
  intros a. rewrite validate_fail. destruct (schema_ok (v_schema a)); [apply run_fail_iff|].
  destruct (v_schema a); intuition discriminate.
Qed.

Theorem ci_exit_iff_made : forall a, v_ci a = true ->
  (r_fail (validate a) = true <->
   schema_ok (v_schema a) = false \/ exists x, In x (todo a) /\ step a x <> OSucc).
Proof. intros a Hci. rewrite exit_iff, Hci. destruct (schema_ok (v_schema a)); intuition discriminate. Qed.

Theorem ci_exit_iff : forall a, v_ci a = true ->
  (r_fail (validate a) = true <->
   schema_ok (v_schema a) = false \/ exists x, In x (todo a) /\ (usable x = false \/ expected a x = false)).
Proof. intros a Hci. rewrite (ci_exit_iff_made a Hci). setoid_rewrite step_not_succ. reflexivity. Qed.

Theorem noci_exit_iff : forall a, v_ci a = false ->
  (r_fail (validate a) = true <->
   (schema_ok (v_schema a) = false /\ v_schema a <> SMissing) \/
   (schema_ok (v_schema a) = true /\ exists x, In x (todo a) /\ step a x = OIoErr)).
Proof. intros a Hci. rewrite exit_iff, Hci. destruct (schema_ok (v_schema a)); intuition discriminate. Qed.

End Proofs.

Lemma root_from_spec : forall pre post i,
  (forall k, In k pre -> is_root k = false) ->
  root_from i (pre ++ KType false :: post) = Some (i + N.of_nat (length pre)).
Proof.
  induction pre as [|k t IH]; intros post i Hpre.
  - cbn. rewrite N.add_0_r. reflexivity.
  - cbn [app root_from length]. rewrite (Hpre k (or_introl eq_refl)).
    rewrite IH by (intros k' Hk'; apply Hpre; right; exact Hk').
    f_equal. rewrite Nat2N.inj_succ. rewrite <- N.add_1_l, N.add_assoc. reflexivity.
Qed.

Lemma root_from_none : forall rs i,
  root_from i rs = None <-> (forall k, In k rs -> is_root k = false).
Proof.
  intros rs i. rewrite <- Forall_forall. revert i. induction rs as [|k t IH]; intros i; cbn [root_from].
  - split; [constructor | reflexivity].
  - rewrite Forall_cons_iff, <- (IH (i + 1)). destruct (is_root k); intuition discriminate.
Qed.

Theorem root_is_first_plain_type_rule : forall pre post,
  (forall k, In k pre -> is_root k = false) ->
  root_index (pre ++ KType false :: post) = Some (N.of_nat (length pre)).
Proof. intros pre post H. unfold root_index. rewrite root_from_spec by exact H. reflexivity. Qed.

Theorem no_root_iff : forall rs,
  has_root rs = false <-> (forall k, In k rs -> is_root k = false).
Proof.
  intros rs. unfold has_root, root_index. rewrite <- (root_from_none rs 0).
  destruct (root_from 0 rs); split; intros H; congruence.
Qed.

Theorem compile_conformant_iff_parse : forall ci f,
  c_conformant (compile_cddl ci f) = true <-> f = FParses.
Proof. intros ci f. now destruct f. Qed.

Theorem compile_iff_parse : forall ci f,
  (c_conformant (compile_cddl ci f) = true /\ c_fail (compile_cddl ci f) = false) <-> f = FParses.
Proof.
  intros ci f. rewrite compile_conformant_iff_parse. split; [tauto | intros ->; auto].
Qed.

Theorem compile_exit_iff_parse : forall ci f, ci = true \/ f <> FMissing ->
  (c_fail (compile_cddl ci f) = false <-> f = FParses).
Proof. intros ci f H. destruct f; cbn; intuition congruence. Qed.
