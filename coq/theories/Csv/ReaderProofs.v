(* Proofs about the record reader model: it always answers (eight turns of the epsilon loop reach a consuming
   move from every state on every byte, so [dfa_step] is never [None]), and it reads back what
   the RFC 4180 writer of Csv/Spec.v wrote. *)
From Cddl Require Import Base.Bytes Csv.Reader Csv.Spec.
Open Scope N_scope.
Local Arguments N.eqb : simpl never.

(* The automaton tells the four special bytes apart and nothing else: on any other byte it
   moves as on byte 0. *)
Lemma transition_plain : forall st c, is_special c = false -> transition_nfa st c = transition_nfa st 0.
Proof.
  intros st c H. unfold is_special in H. rewrite !orb_false_iff in H. destruct H as [[[E34 E44] E13] E10].
  unfold transition_nfa, term_equals, cfg_quote, cfg_delimiter.
  rewrite (N.eqb_sym 34 c), (N.eqb_sym 44 c), E34, E44, E13, E10. reflexivity.
Qed.

Lemma dfa_step_plain : forall st c, is_special c = false -> dfa_step st c = dfa_step st 0.
Proof.
  intros st c H. unfold dfa_step.
  assert (E : forall n x, Nat.iter n (advance c) x = Nat.iter n (advance 0) x).
  { induction n as [|n IH]; intros x; [reflexivity|]. simpl. rewrite IH.
    destruct (Nat.iter n (advance 0) x) as [s a].
    destruct s, a; try reflexivity; exact (transition_plain _ c H). }
  rewrite E. reflexivity.
Qed.

Lemma dfa_step_total : forall st c, dfa_step st c <> None.
Proof.
  intros st c. destruct (is_special c) eqn:H.
  - unfold is_special in H. rewrite !orb_true_iff, !N.eqb_eq in H.
    destruct H as [[[->| ->]| ->]| ->]; destruct st; vm_compute; discriminate.
  - rewrite (dfa_step_plain st c H). destruct st; vm_compute; discriminate.
Qed.

Lemma run_total : forall bs st cur rec recs, run st cur rec recs bs <> None.
Proof.
  induction bs as [|c r IH]; intros st cur rec recs; cbn [run].
  - destruct (final_emits st); discriminate.
  - destruct (dfa_step st c) as [[st' out]|] eqn:E.
    + destruct (record_final st'); [apply IH|]. destruct (field_final st'); apply IH.
    + exfalso. exact (dfa_step_total st c E).
Qed.

Theorem read_csv_total : forall bs, read_csv bs <> None.
Proof. intros bs. unfold read_csv. apply run_total. Qed.

(* The states the written text passes through between fields: [starts], where the next byte
   begins a field; [closes], where a comma, a line break or the end of the text ends a field
   that is there (after a comma: the empty one); [record_start], between two records, where
   a line break or the end of the text ends nothing. *)
Definition starts (s : nfa) : bool :=
  match s with StartRecord | EndRecord | EndFieldDelim => true | _ => false end.
Definition closes (s : nfa) : bool :=
  match s with InField | InDoubleEscapedQuote | EndFieldDelim => true | _ => false end.
Definition record_start (s : nfa) : bool :=
  match s with StartRecord | EndRecord => true | _ => false end.

Lemma record_start_starts : forall s, record_start s = true -> starts s = true.
Proof. intros s H. destruct s; try discriminate H; reflexivity. Qed.

Lemma step_plain_start : forall s b, is_special b = false -> (starts s || closes s) = true ->
  dfa_step s b = Some (InField, true).
Proof.
  intros s b Hb Hs. rewrite (dfa_step_plain s b Hb). destruct s; try discriminate Hs; reflexivity.
Qed.

Lemma step_quoted_other : forall b, (34 =? b) = false ->
  dfa_step InQuotedField b = Some (InQuotedField, true).
Proof. intros b E. unfold dfa_step. cbn. unfold cfg_quote. rewrite E. reflexivity. Qed.

Lemma step_quote : forall s, starts s = true -> dfa_step s 34 = Some (InQuotedField, false).
Proof. intros s Hs. destruct s; try discriminate Hs; reflexivity. Qed.

Lemma run_plain : forall f cur rec recs rest, needs_quote f = false ->
  run InField cur rec recs (f ++ rest) = run InField (rev f ++ cur) rec recs rest.
Proof.
  induction f as [|b f IH]; intros cur rec recs rest H; [reflexivity|].
  cbn [needs_quote existsb] in H. apply orb_false_iff in H. destruct H as [Hb Hf].
  cbn [app run]. rewrite (step_plain_start InField b Hb eq_refl). cbn [record_final field_final].
  rewrite IH by exact Hf. cbn [rev]. rewrite <- app_assoc. reflexivity.
Qed.

Lemma run_esc_byte : forall b cur rec recs rest,
  run InQuotedField cur rec recs (esc_byte b ++ rest) = run InQuotedField (b :: cur) rec recs rest.
Proof.
  intros b cur rec recs rest. unfold esc_byte.
  destruct (N.eqb_spec b 34) as [->|Hb]; cbn [app run]; [reflexivity|].
  rewrite step_quoted_other by (apply N.eqb_neq; congruence). reflexivity.
Qed.

Lemma run_escaped : forall f cur rec recs rest,
  run InQuotedField cur rec recs (escape f ++ 34 :: rest)
  = run InDoubleEscapedQuote (rev f ++ cur) rec recs rest.
Proof.
  induction f as [|b f IH]; intros cur rec recs rest; [reflexivity|].
  unfold escape in *. cbn [flat_map]. rewrite <- app_assoc, run_esc_byte, IH.
  cbn [rev]. rewrite <- app_assoc. reflexivity.
Qed.

Definition st_after (st : style) (s0 : nfa) (f : list N) : nfa :=
  if quote_all st || needs_quote f then InDoubleEscapedQuote
  else match f with [] => s0 | _ => InField end.

Lemma run_field : forall st s0 f rec recs rest, starts s0 = true ->
  run s0 [] rec recs (write_field st f ++ rest) = run (st_after st s0 f) (rev f) rec recs rest.
Proof.
  intros st s0 f rec recs rest Hs. unfold write_field, st_after.
  destruct (quote_all st || needs_quote f) eqn:Q.
  - cbn [app run]. rewrite (step_quote s0 Hs). cbn [record_final field_final].
    rewrite <- app_assoc. cbn [app]. rewrite run_escaped. rewrite app_nil_r. reflexivity.
  - apply orb_false_iff in Q. destruct Q as [_ Q]. destruct f as [|b f]; [reflexivity|].
    cbn [needs_quote existsb] in Q. apply orb_false_iff in Q. destruct Q as [Hb Hf].
    cbn [app run]. rewrite (step_plain_start s0 b Hb) by (rewrite Hs; reflexivity).
    cbn [record_final field_final]. rewrite run_plain by exact Hf. reflexivity.
Qed.

Lemma st_after_ok : forall st s0 f, starts s0 = true ->
  (starts (st_after st s0 f) || closes (st_after st s0 f)) = true.
Proof.
  intros st s0 f Hs. unfold st_after. destruct (quote_all st || needs_quote f); [reflexivity|].
  destruct f; [rewrite Hs; reflexivity | reflexivity].
Qed.

Lemma run_comma : forall s cur rec recs rest, (starts s || closes s) = true ->
  run s cur rec recs (44 :: rest) = run EndFieldDelim [] (rev cur :: rec) recs rest.
Proof. intros s cur rec recs rest Hs. destruct s; try discriminate Hs; reflexivity. Qed.

Definition after_break (st : style) : nfa := if crlf st then StartRecord else EndRecord.

Definition ends (st : style) (t rest : list N) : Prop :=
  t = line_break st ++ rest \/ t = [] /\ rest = [].

(* a closing state ends the record on LF, on CR LF (through the state CRLF) and at the end of
   the text alike: 3 states x 2 line breaks x 2 endings, each by running the automaton *)
Lemma run_end : forall st s cur rec recs t rest, closes s = true -> ends st t rest ->
  run s cur rec recs t = run (after_break st) [] [] (rev (rev cur :: rec) :: recs) rest.
Proof.
  intros st s cur rec recs t rest Hc [-> | [-> ->]]; unfold after_break, line_break;
    destruct s; try discriminate Hc; destruct (crlf st); reflexivity.
Qed.

Lemma run_record : forall st fs f s0 rec recs t rest, starts s0 = true ->
  closes s0 = true \/ lone_empty st (f :: fs) = false -> ends st t rest ->
  run s0 [] rec recs (write_record st (f :: fs) ++ t)
  = run (after_break st) [] [] ((rev rec ++ f :: fs) :: recs) rest.
Proof.
  intros st fs. induction fs as [|g fs IH]; intros f s0 rec recs t rest Hs Hlone Ht.
  - assert (Hc : closes (st_after st s0 f) = true).
    { unfold st_after. destruct (quote_all st) eqn:Q; [reflexivity|].
      destruct f; [|destruct (needs_quote _); reflexivity].
      (* an empty unquoted field leaves the state where it was *)
      destruct Hlone as [H|H]; [exact H | cbn in H; rewrite Q in H; discriminate H]. }
    cbn [write_record]. rewrite run_field by exact Hs. rewrite (run_end st _ _ _ _ t rest Hc Ht).
    cbn [rev]. rewrite rev_involutive. reflexivity.
  - change (write_record st (f :: g :: fs)) with (write_field st f ++ 44 :: write_record st (g :: fs)).
    rewrite <- app_assoc, run_field by exact Hs. cbn [app].
    rewrite run_comma by (apply st_after_ok; exact Hs).
    rewrite rev_involutive, (IH g EndFieldDelim (f :: rec) recs t rest eq_refl (or_introl eq_refl) Ht).
    cbn [rev]. rewrite <- app_assoc. reflexivity.
Qed.

Lemma write_csv_cons : forall st r rows, exists t,
  write_csv4180 st (r :: rows) = write_record st r ++ t /\ ends st t (write_csv4180 st rows).
Proof.
  intros st r [|r2 rows].
  - exists (if final_break st then line_break st else []). split; [reflexivity|].
    destruct (final_break st); [left; symmetry; apply app_nil_r | right; split; reflexivity].
  - exists (line_break st ++ write_csv4180 st (r2 :: rows)). split; [reflexivity | left; reflexivity].
Qed.

Lemma run_rows : forall st rows s0 recs, record_start s0 = true ->
  nonempty_records rows = true -> forallb (fun r => negb (lone_empty st r)) rows = true ->
  run s0 [] [] recs (write_csv4180 st rows) = Some (rev recs ++ rows).
Proof.
  intros st rows. induction rows as [|r rows IH]; intros s0 recs Hs Hne Hl.
  - rewrite app_nil_r. destruct s0; try discriminate Hs; reflexivity.
  - cbn [nonempty_records forallb] in Hne, Hl.
    apply andb_true_iff in Hne. destruct Hne as [Hr Hne].
    apply andb_true_iff in Hl. destruct Hl as [Hlr Hl]. apply negb_true_iff in Hlr.
    destruct r as [|f fs]; [discriminate Hr|].
    destruct (write_csv_cons st (f :: fs) rows) as [t [-> Ht]].
    rewrite (run_record st fs f s0 [] recs t _ (record_start_starts s0 Hs) (or_intror Hlr) Ht).
    rewrite IH by (assumption || (unfold after_break; destruct (crlf st); reflexivity)).
    cbn [rev app]. rewrite <- app_assoc. reflexivity.
Qed.

Lemma strip_bom_id : forall bs, starts_with_bom bs = false -> strip_bom bs = bs.
Proof.
  intros bs H. unfold strip_bom, starts_with_bom in *.
  destruct bs as [|a [|b [|c r]]]; try reflexivity. rewrite H. reflexivity.
Qed.

(* the full statement  forall st rows, read_csv (write_csv4180 st rows) = Some rows  is false
   (csv_roundtrip_refuted); it holds under [rt_ok] *)
Theorem csv_roundtrip_partial : forall st rows, rt_ok st rows = true ->
  read_csv (write_csv4180 st rows) = Some rows.
Proof.
  intros st rows H. unfold rt_ok in H.
  apply andb_true_iff in H. destruct H as [H Hb].
  apply andb_true_iff in H. destruct H as [Hne Hl].
  apply negb_true_iff in Hb. unfold read_csv. rewrite strip_bom_id by exact Hb.
  apply (run_rows st rows StartRecord [] eq_refl Hne Hl).
Qed.

Definition style_min : style := {| crlf := true; final_break := true; quote_all := false |}.
Definition style_quoted : style := {| crlf := true; final_break := true; quote_all := true |}.

(* witnesses: a record of one empty field written as an empty line is dropped; a first field
   that begins with the bytes EF BB BF loses them *)
Theorem csv_roundtrip_refuted :
  (exists st rows, nonempty_records rows = true /\ read_csv (write_csv4180 st rows) <> Some rows)
  /\ read_csv (write_csv4180 style_min [[[]]]) = Some []
  /\ read_csv (write_csv4180 style_min [[[239; 187; 191; 97]]]) = Some [[[97]]].
Proof.
  assert (E : read_csv (write_csv4180 style_min [[[]]]) = Some []) by (vm_compute; reflexivity).
  split; [|split; [exact E | vm_compute; reflexivity]].
  exists style_min, [[[]]]. split; [reflexivity|]. rewrite E. discriminate.
Qed.

(* the same record survives when it is written quoted *)
Lemma lone_empty_quoted_ok : read_csv (write_csv4180 style_quoted [[[]]]) = Some [[[]]].
Proof. vm_compute. reflexivity. Qed.
