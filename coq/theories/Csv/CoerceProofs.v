(* Proofs about the coercion model: the spellings coerce_field turns into numbers are exactly
   the number spellings of Csv/Spec.v with a finite value; integer values are exact; the
   header row stays text; the mapped document is an array of arrays of scalars. *)
From Coq Require Import ZifyBool ZifyNat ZifyN.
From Cddl Require Import Base.Bytes Base.Lists Csv.Reader Csv.Coerce Csv.Spec Csv.ReaderProofs.
Open Scope N_scope.

(* [all_digits ds = true] of the model is [digits ds] of the specification up to conversion
   ([is_digit] and [digitb] have the same body): what is stated with [digits] applies to both. *)
Lemma digits_cons : forall c ds, digits (c :: ds) <-> is_digit c = true /\ digits ds.
Proof. intros c ds. exact (andb_true_iff (is_digit c) (forallb digitb ds)). Qed.

Lemma digits_app : forall a b, digits (a ++ b) <-> digits a /\ digits b.
Proof. intros a b. unfold digits. rewrite forallb_app. apply andb_true_iff. Qed.

Lemma dval_dec_value : forall ds, dval ds = dec_value ds.
Proof.
  intros ds. unfold dval, dec_value. generalize 0.
  induction ds as [|d r IH]; intros acc; [reflexivity | apply IH].
Qed.

(* one more digit at the end: 10 * v + d < 10 * 10 ^ n from v < 10 ^ n and d <= 9 *)
Lemma dec_value_bound : forall ds, digits ds ->
  (Z.of_N (dec_value ds) < 10 ^ Z.of_nat (length ds))%Z.
Proof.
  induction ds as [|d ds IH] using rev_ind; intros H; [reflexivity|].
  apply digits_app in H. destruct H as [Hds Hd]. apply digits_cons in Hd. destruct Hd as [Hd _].
  specialize (IH Hds). unfold is_digit in Hd. unfold dec_value in *.
  rewrite fold_left_app, app_length, Nat.add_1_r, Nat2Z.inj_succ, Z.pow_succ_r by lia.
  cbn [fold_left]. lia.
Qed.

Definition no_digit_head (s : list N) : Prop :=
  match s with c :: _ => is_digit c = false | [] => True end.

Lemma span_digits_spec : forall s a b, span_digits s = (a, b) ->
  s = a ++ b /\ digits a /\ no_digit_head b.
Proof.
  induction s as [|c r IH]; intros a b H; cbn [span_digits] in H.
  - injection H as <- <-. repeat split.
  - destruct (is_digit c) eqn:Hc.
    + destruct (span_digits r) as [a' b'] eqn:E. injection H as <- <-.
      destruct (IH a' b' eq_refl) as [-> [H2 H3]].
      split; [reflexivity|]. split; [apply digits_cons; split|]; assumption.
    + injection H as <- <-. repeat split. exact Hc.
Qed.

Lemma span_digits_app : forall a b, digits a -> no_digit_head b -> span_digits (a ++ b) = (a, b).
Proof.
  induction a as [|c a IH]; intros b Ha Hb.
  - destruct b as [|d b]; [reflexivity|]. cbn [app span_digits]. cbn in Hb. rewrite Hb. reflexivity.
  - apply digits_cons in Ha. destruct Ha as [Hc Ha].
    cbn [app span_digits]. rewrite Hc, (IH b Ha Hb). reflexivity.
Qed.

Lemma strip_sign_spec : forall s neg r, strip_sign s = (neg, r) ->
  exists sg, s = sg ++ r /\ sign_of sg neg.
Proof.
  intros s neg r. unfold strip_sign, is_minus, is_plus.
  destruct s as [|c s']; [intros [= <- <-]; exists []; split; constructor|].
  destruct (N.eqb_spec c 45) as [->|_]; [|destruct (N.eqb_spec c 43) as [->|_]]; intros [= <- <-];
    [exists [45] | exists [43] | exists []]; split; constructor.
Qed.

Definition no_sign_head (s : list N) : Prop :=
  match s with c :: _ => is_minus c = false /\ is_plus c = false | [] => True end.

Lemma strip_sign_app : forall sg neg r, sign_of sg neg -> no_sign_head r ->
  strip_sign (sg ++ r) = (neg, r).
Proof.
  intros sg neg r Hs Hr. destruct Hs; cbn [app]; try reflexivity.
  destruct r as [|c r]; [reflexivity|]. destruct Hr as [Hm Hp]. unfold strip_sign. rewrite Hm, Hp. reflexivity.
Qed.

Lemma digits_no_sign_head : forall ds r, digits ds -> ds <> [] -> no_sign_head (ds ++ r).
Proof.
  intros ds r H Hne. destruct ds as [|c ds]; [congruence|].
  apply digits_cons in H. destruct H as [H _]. unfold is_digit in H.
  cbn [app no_sign_head]. unfold is_minus, is_plus. lia.
Qed.

Definition signed_val (neg : bool) (ds : list N) : Z :=
  (if neg then - Z.of_N (dec_value ds) else Z.of_N (dec_value ds))%Z.

(* int_split strips the sign as strip_sign does, except that an unsigned type leaves a minus
   sign where it is (the digit test then refuses it), and that something must remain *)
Lemma int_split_eq : forall signed s, int_split signed s =
  let '(neg, r) := strip_sign s in
  match r with
  | [] => None
  | _ => Some (if neg && negb signed then (true, s) else (negb neg, r))
  end.
Proof.
  intros signed s. unfold int_split, strip_sign, is_plus, is_minus. destruct s as [|c r]; [reflexivity|].
  destruct (N.eqb_spec c 43) as [->|_]; [destruct r; reflexivity|].
  destruct (c =? 45), signed, r; reflexivity.
Qed.

Lemma int_split_spec : forall signed s p ds, int_split signed s = Some (p, ds) -> digits ds ->
  int_spelling s (signed_val (negb p) ds) /\ (signed = false -> p = true).
Proof.
  intros signed s p ds H Hd. rewrite int_split_eq in H.
  destruct (strip_sign s) as [neg r] eqn:E. destruct (strip_sign_spec _ _ _ E) as [sg [-> Hs]].
  destruct r as [|c r]; [discriminate|]. assert (Hne : c :: r <> []) by discriminate.
  destruct neg; [destruct signed|]; cbn [andb negb] in H; injection H as <- <-.
  - split; [exact (IntSp sg true _ Hs Hd Hne) | discriminate].
  - inversion Hs; subst sg; discriminate Hd.
  - split; [exact (IntSp sg false _ Hs Hd Hne) | reflexivity].
Qed.

Lemma int_split_complete : forall signed sg neg ds, sign_of sg neg -> digits ds -> ds <> [] ->
  int_split signed (sg ++ ds) = Some (if neg && negb signed then (true, sg ++ ds) else (negb neg, ds)).
Proof.
  intros signed sg neg ds Hs Hd Hne. pose proof (digits_no_sign_head ds [] Hd Hne) as Hh.
  rewrite app_nil_r in Hh. rewrite int_split_eq, (strip_sign_app sg neg ds Hs Hh).
  destruct ds; [congruence | reflexivity].
Qed.

Lemma parse_u64_sound : forall f n, parse_u64 f = Some n ->
  int_spelling f (Z.of_N n) /\ n < 2 ^ 64.
Proof.
  intros f n. unfold parse_u64.
  destruct (int_split false f) as [[p ds]|] eqn:E; [|discriminate]. rewrite dval_dec_value.
  destruct (all_digits ds) eqn:Hd; [|discriminate].
  destruct (N.ltb_spec (dec_value ds) (2 ^ 64)) as [Hlt|_]; intros [= <-].
  destruct (int_split_spec _ _ _ _ E Hd) as [Hi Hp]. rewrite (Hp eq_refl) in Hi.
  split; [exact Hi | exact Hlt].
Qed.

Lemma parse_i64_sound : forall f z, parse_i64 f = Some z ->
  int_spelling f z /\ (- 2 ^ 63 <= z < 2 ^ 63)%Z.
Proof.
  intros f z. unfold parse_i64.
  destruct (int_split true f) as [[p ds]|] eqn:E; [|discriminate]. rewrite !dval_dec_value.
  destruct (all_digits ds) eqn:Hd; [|destruct p; discriminate].
  destruct (int_split_spec _ _ _ _ E Hd) as [Hi _].
  destruct p; [destruct (N.ltb_spec (dec_value ds) (2 ^ 63)) | destruct (N.leb_spec (dec_value ds) (2 ^ 63))];
    intros [= <-]; (split; [exact Hi | lia]).
Qed.

(* u64 refuses a minus sign, even on "-0" *)
Lemma parse_u64_spelling : forall sg neg ds, sign_of sg neg -> digits ds -> ds <> [] ->
  parse_u64 (sg ++ ds)
  = if neg then None else if dec_value ds <? 2 ^ 64 then Some (dec_value ds) else None.
Proof.
  intros sg neg ds Hs Hd Hne. unfold parse_u64. rewrite (int_split_complete false sg neg ds Hs Hd Hne).
  destruct Hs; cbn [andb negb]; try (rewrite (Hd : all_digits ds = true), dval_dec_value); reflexivity.
Qed.

Lemma parse_i64_spelling : forall sg neg ds, sign_of sg neg -> digits ds -> ds <> [] ->
  parse_i64 (sg ++ ds)
  = if (if neg then dec_value ds <=? 2 ^ 63 else dec_value ds <? 2 ^ 63)
    then Some (signed_val neg ds) else None.
Proof.
  intros sg neg ds Hs Hd Hne. unfold parse_i64. rewrite (int_split_complete true sg neg ds Hs Hd Hne).
  rewrite andb_false_r. destruct neg; cbn [negb]; rewrite (Hd : all_digits ds = true), dval_dec_value; reflexivity.
Qed.

(* [json_of_i64] of the model, under the name the statements use *)
Definition json_int (z : Z) : json := if (z <? 0)%Z then JI z else JU (Z.to_N z).

(* the empty field needs no case of its own: none of the three parsers accepts it *)
Lemma coerce_field_eq : forall f, coerce_field f =
  match parse_u64 f with
  | Some n => JU n
  | None =>
    match parse_i64 f with
    | Some z => json_int z
    | None =>
      match parse_f64 f with
      | Some (FDec neg D e nd) => if f64_finiteb nd D e then JF neg D e else JStr f
      | _ => JStr f
      end
    end
  end.
Proof. intros f. destruct f; reflexivity. Qed.

Theorem coerce_int_value : forall f z, int_spelling f z -> (- 2 ^ 63 <= z < 2 ^ 64)%Z ->
  coerce_field f = json_int z.
Proof.
  intros f z [s neg ds Hs Hd Hne] Hr.
  rewrite coerce_field_eq, (parse_u64_spelling s neg ds Hs Hd Hne). destruct neg.
  - rewrite (parse_i64_spelling s true ds Hs Hd Hne).
    replace (dec_value ds <=? 2 ^ 63) with true by lia. reflexivity.
  - replace (dec_value ds <? 2 ^ 64) with true by lia. unfold json_int.
    replace (Z.of_N (dec_value ds) <? 0)%Z with false by lia. rewrite N2Z.id. reflexivity.
Qed.

Lemma parse_scientific_sound : forall s ev rest, parse_scientific s = Some (ev, rest) ->
  exists x, s = x ++ rest /\ int_spelling x ev.
Proof.
  intros s ev rest. unfold parse_scientific.
  destruct (strip_sign s) as [neg s1] eqn:E1. destruct (span_digits s1) as [ds r] eqn:E2.
  destruct (strip_sign_spec _ _ _ E1) as [sg [-> Hsg]].
  destruct (span_digits_spec _ _ _ E2) as [-> [Hd _]].
  destruct ds as [|d ds]; [discriminate|]. rewrite dval_dec_value. intros [= <- <-].
  exists (sg ++ d :: ds). split; [apply app_assoc|].
  exact (IntSp sg neg (d :: ds) Hsg Hd ltac:(discriminate)).
Qed.

Lemma parse_scientific_complete : forall x ev rest, int_spelling x ev -> no_digit_head rest ->
  parse_scientific (x ++ rest) = Some (ev, rest).
Proof.
  intros x ev rest [sg neg ds Hs Hd Hne] Hr. unfold parse_scientific.
  rewrite <- app_assoc, (strip_sign_app sg neg (ds ++ rest) Hs (digits_no_sign_head ds rest Hd Hne)).
  rewrite (span_digits_app ds rest Hd Hr), dval_dec_value.
  destruct ds; [congruence | reflexivity].
Qed.

Definition parse_frac (s : list N) : list N * list N :=
  match s with
  | c :: r => if c =? 46 then span_digits r else ([], s)
  | [] => ([], s)
  end.

Definition parse_exp (s : list N) : option (Z * list N) :=
  match s with
  | c :: r => if is_e c then parse_scientific r else Some (0%Z, s)
  | [] => Some (0%Z, s)
  end.

Lemma parse_number_eq : forall s, parse_number s =
  let '(ip, s1) := span_digits s in
  let '(fp, s2) := parse_frac s1 in
  match ip ++ fp, parse_exp s2 with
  | _ :: _, Some (ev, []) =>
      Some (dec_value (ip ++ fp), (ev - Z.of_nat (length fp))%Z, length (ip ++ fp))
  | _, _ => None
  end.
Proof.
  intros s. unfold parse_number, parse_partial_number. destruct (span_digits s) as [ip s1].
  fold (parse_frac s1). destruct (parse_frac s1) as [fp s2].
  rewrite <- app_length, dval_dec_value. destruct (ip ++ fp) as [|d l]; [reflexivity|].
  cbn [length]. unfold parse_exp. destruct s2 as [|c r]; [reflexivity|].
  destruct (is_e c); [|reflexivity].
  destruct (parse_scientific r) as [[ev [|c' r']]|]; try reflexivity. rewrite Z.add_comm. reflexivity.
Qed.

Lemma parse_frac_spec : forall s fp s2, parse_frac s = (fp, s2) ->
  exists fr, s = fr ++ s2 /\ frac_of fr fp.
Proof.
  intros s fp s2. unfold parse_frac.
  destruct s as [|c r]; [intros [= <- <-]; exists []; split; constructor|].
  destruct (N.eqb_spec c 46) as [->|_].
  - intros E. destruct (span_digits_spec _ _ _ E) as [-> [Hfp _]].
    exists (46 :: fp). split; [reflexivity | constructor; exact Hfp].
  - intros [= <- <-]. exists []. split; constructor.
Qed.

Lemma parse_exp_spec : forall s ev, parse_exp s = Some (ev, []) <-> exp_of s ev.
Proof.
  intros s ev. unfold parse_exp. split.
  - destruct s as [|c r]; [intros [= <-]; constructor|].
    destruct (is_e c) eqn:Hc; [|discriminate]. intros H.
    destruct (parse_scientific_sound _ _ _ H) as [x [-> [sg neg ds Hsg Hd Hne]]].
    rewrite app_nil_r. unfold is_e in Hc. constructor; [lia | assumption..].
  - intros [|c sg neg ds Hc Hsg Hd Hne]; [reflexivity|].
    replace (is_e c) with true by (unfold is_e; lia).
    rewrite <- (app_nil_r (sg ++ ds)) at 1.
    exact (parse_scientific_complete _ _ [] (IntSp sg neg ds Hsg Hd Hne) I).
Qed.

Lemma exp_no_digit_head : forall fr fp ex ev, frac_of fr fp -> exp_of ex ev -> no_digit_head (fr ++ ex).
Proof.
  intros fr fp ex ev Hf He. destruct Hf; [|reflexivity].
  destruct He as [|c s neg ds [-> | ->]]; [exact I | reflexivity..].
Qed.

Lemma parse_frac_app : forall fr fp ex ev, frac_of fr fp -> exp_of ex ev ->
  parse_frac (fr ++ ex) = (fp, ex).
Proof.
  intros fr fp ex ev Hfr Hex. destruct Hfr as [|fp Hfp].
  - destruct Hex as [|c s neg ds [-> | ->]]; reflexivity.
  - exact (span_digits_app fp ex Hfp (exp_no_digit_head [] [] ex ev frac_none Hex)).
Qed.

Lemma parse_number_sound : forall s D e nd, parse_number s = Some (D, e, nd) ->
  (forall sg neg, sign_of sg neg -> spells (sg ++ s) neg D e) /\ (Z.of_N D < 10 ^ Z.of_nat nd)%Z.
Proof.
  intros s D e nd. rewrite parse_number_eq.
  destruct (span_digits s) as [ip s1] eqn:E1. destruct (span_digits_spec _ _ _ E1) as [-> [Hip _]].
  destruct (parse_frac s1) as [fp ex] eqn:E2. destruct (parse_frac_spec _ _ _ E2) as [fr [-> Hfr]].
  destruct (ip ++ fp) as [|d l] eqn:Hne; [discriminate|]. rewrite <- Hne.
  destruct (parse_exp ex) as [[ev [|c r]]|] eqn:E3; try discriminate. apply parse_exp_spec in E3.
  intros [= <- <- <-]. split.
  - intros sg neg Hsg. apply (Spells sg neg ip fr fp ex ev); try assumption. rewrite Hne. discriminate.
  - apply dec_value_bound, digits_app. split; [exact Hip | destruct Hfr; [reflexivity | assumption]].
Qed.

Lemma parse_number_complete : forall ip fr fp ex ev,
  digits ip -> frac_of fr fp -> ip ++ fp <> [] -> exp_of ex ev ->
  parse_number (ip ++ fr ++ ex)
  = Some (dec_value (ip ++ fp), (ev - Z.of_nat (length fp))%Z, length (ip ++ fp)).
Proof.
  intros ip fr fp ex ev Hip Hfr Hne Hex. rewrite parse_number_eq.
  rewrite (span_digits_app ip (fr ++ ex) Hip (exp_no_digit_head fr fp ex ev Hfr Hex)). cbv beta iota.
  rewrite (parse_frac_app fr fp ex ev Hfr Hex), (proj2 (parse_exp_spec ex ev) Hex).
  destruct (ip ++ fp); [congruence | reflexivity].
Qed.

(* digits, '.', 'e'/'E' are not letters of NAN / INF / INFINITY: a number never reaches parse_inf_nan,
   and soundness only needs the FDec case *)
Lemma parse_inf_nan_not_dec : forall s neg neg' D e nd, parse_inf_nan s neg <> Some (FDec neg' D e nd).
Proof.
  intros s neg neg' D e nd. unfold parse_inf_nan.
  destruct (eq_bytes (map upper s) str_NAN); [discriminate|].
  destruct (eq_bytes (map upper s) str_INF || eq_bytes (map upper s) str_INFINITY); discriminate.
Qed.

(* the two emptiness tests of parse_f64 are implied: parse_number and parse_inf_nan refuse [] *)
Lemma parse_f64_eq : forall f, parse_f64 f =
  let '(neg, r) := strip_sign f in
  match parse_number r with
  | Some (D, e, nd) => Some (FDec neg D e nd)
  | None => parse_inf_nan r neg
  end.
Proof.
  intros f. destruct f as [|c f]; [reflexivity|].
  unfold parse_f64. destruct (strip_sign (c :: f)) as [neg [|c' r]]; reflexivity.
Qed.

Lemma parse_f64_sound : forall f neg D e nd, parse_f64 f = Some (FDec neg D e nd) ->
  spells f neg D e /\ (Z.of_N D < 10 ^ Z.of_nat nd)%Z.
Proof.
  intros f neg D e nd. rewrite parse_f64_eq.
  destruct (strip_sign f) as [neg' r] eqn:Es. destruct (strip_sign_spec _ _ _ Es) as [sg [-> Hsg]].
  destruct (parse_number r) as [[[D' e'] nd']|] eqn:En.
  - intros [= <- <- <- <-]. destruct (parse_number_sound _ _ _ _ En) as [Sp B].
    split; [exact (Sp sg neg' Hsg) | exact B].
  - intros H. elim (parse_inf_nan_not_dec _ _ _ _ _ _ H).
Qed.

Lemma parse_f64_complete : forall f neg D e, spells f neg D e ->
  exists nd, parse_f64 f = Some (FDec neg D e nd).
Proof.
  intros f neg D e [sg neg' ip fr fp ex ev Hsg Hip Hfr Hne Hex]. exists (length (ip ++ fp)).
  assert (Hh : no_sign_head (ip ++ fr ++ ex)).
  { destruct ip as [|c ip]; [|exact (digits_no_sign_head (c :: ip) _ Hip ltac:(discriminate))].
    destruct Hfr; [elim Hne; reflexivity | split; reflexivity]. }
  rewrite parse_f64_eq, (strip_sign_app sg neg' _ Hsg Hh). cbv beta iota.
  rewrite (parse_number_complete ip fr fp ex ev Hip Hfr Hne Hex). reflexivity.
Qed.

(* T64 and 10^308 are 1024-bit numbers: both bounds from one evaluation of each *)
Lemma T64_between : (10 ^ 308 < T64 < 10 ^ 309)%Z.
Proof.
  assert (H : (let p := 10 ^ 308 in let t := T64 in (p <? t) && (t <? 10 * p))%Z = true)
    by (vm_compute; reflexivity).
  cbv zeta in H. apply andb_true_iff in H. destruct H as [H1 H2].
  change 309%Z with (Z.succ 308). rewrite Z.pow_succ_r by lia. split; apply Z.ltb_lt; assumption.
Qed.

(* The powers of ten stay variables: with the numerals in place lia would expand 10^308. *)
Lemma scaled_small : forall T a n d e, (0 <= a -> 0 <= n -> 10 ^ a < T -> 0 <= d < 10 ^ n -> e + n <= a ->
  if 0 <=? e then d * 10 ^ e < T else d < T * 10 ^ (- e))%Z.
Proof.
  intros T a n d e Ha Hn HT Hd Hen. destruct (Z.leb_spec 0 e) as [He|He].
  - apply Z.le_lt_trans with (10 ^ n * 10 ^ e)%Z; [apply Z.mul_le_mono_nonneg_r; [apply Z.pow_nonneg|]; lia|].
    rewrite <- Z.pow_add_r by lia. apply Z.le_lt_trans with (10 ^ a)%Z; [apply Z.pow_le_mono_r; lia | exact HT].
  - apply Z.lt_le_trans with (10 ^ n)%Z; [lia|].
    apply Z.le_trans with (10 ^ a * 10 ^ (- e))%Z.
    + rewrite <- Z.pow_add_r by lia. apply Z.pow_le_mono_r; lia.
    + apply Z.mul_le_mono_nonneg_r; [apply Z.pow_nonneg|]; lia.
Qed.

Lemma scaled_large : forall T b d e, (b <= e -> T < 10 ^ b -> 1 <= d -> ~ d * 10 ^ e < T)%Z.
Proof.
  intros T b d e Hbe HT Hd.
  assert (H1 : (10 ^ b <= 10 ^ e)%Z) by (apply Z.pow_le_mono_r; lia).
  assert (H2 : (1 * 10 ^ e <= d * 10 ^ e)%Z) by (apply Z.mul_le_mono_nonneg_r; lia).
  lia.
Qed.

Lemma scaled_zero : forall T e, (0 < T -> if 0 <=? e then 0 * 10 ^ e < T else 0 < T * 10 ^ (- e))%Z.
Proof.
  intros T e HT. destruct (Z.leb_spec 0 e); [lia|].
  apply Z.mul_pos_pos; [exact HT | apply Z.pow_pos_nonneg; lia].
Qed.

Lemma f64_finiteb_spec : forall nd D e, (Z.of_N D < 10 ^ Z.of_nat nd)%Z ->
  (f64_finiteb nd D e = true <-> dec_finite D e).
Proof.
  intros nd D e HD. unfold f64_finiteb, dec_finite. change f64_threshold with T64.
  destruct (N.eqb_spec D 0) as [->|H0].
  { split; [intros _|reflexivity]. apply scaled_zero.
    apply Z.lt_trans with (10 ^ 308)%Z; [apply Z.pow_pos_nonneg; lia | exact (proj1 T64_between)]. }
  destruct (Z.leb_spec 309 e) as [H309|H309].
  { split; [discriminate|]. replace (0 <=? e)%Z with true by lia.
    intros H. exfalso. apply (scaled_large T64 309 (Z.of_N D) e); [lia | exact (proj2 T64_between) | lia | exact H]. }
  destruct (Z.leb_spec (e + Z.of_nat nd) 308) as [H308|H308].
  { split; [intros _|reflexivity].
    apply (scaled_small T64 308 (Z.of_nat nd)); [lia | lia | exact (proj1 T64_between) | lia | exact H308]. }
  destruct (0 <=? e)%Z; apply Z.ltb_lt.
Qed.

Lemma int_spelling_finite : forall f z, int_spelling f z -> (- 2 ^ 64 <= z <= 2 ^ 64)%Z ->
  exists neg, spells f neg (Z.abs_N z) 0 /\ dec_finite (Z.abs_N z) 0.
Proof.
  intros f z [s neg ds Hs Hd Hne] Hz. exists neg.
  replace (Z.abs_N (if neg then - Z.of_N (dec_value ds) else Z.of_N (dec_value ds))%Z)
    with (dec_value ds) by (destruct neg; lia).
  split.
  - pose proof (Spells s neg ds [] [] [] 0%Z Hs Hd frac_none) as Sp.
    rewrite !app_nil_r in Sp. apply Sp; [exact Hne | constructor].
  - (* at most 2^64 < 10^20 *)
    apply (scaled_small T64 308 20); [lia | lia | exact (proj1 T64_between) | destruct neg; lia | lia].
Qed.

Inductive coerced (f : list N) : json -> Prop :=
| CoU n : int_spelling f (Z.of_N n) -> n < 2 ^ 64 -> coerced f (JU n)
| CoI z : int_spelling f z -> (- 2 ^ 63 <= z < 0)%Z -> coerced f (JI z)
| CoF neg D e : ~ (exists z, int_spelling f z /\ (- 2 ^ 63 <= z < 2 ^ 64)%Z) ->
    spells f neg D e -> dec_finite D e -> coerced f (JF neg D e)
| CoS : ~ (exists neg D e, spells f neg D e /\ dec_finite D e) -> coerced f (JStr f).

Lemma coerce_field_spec : forall f, coerced f (coerce_field f).
Proof.
  intros f. rewrite coerce_field_eq.
  destruct (parse_u64 f) as [n|] eqn:Eu.
  { destruct (parse_u64_sound _ _ Eu). constructor; assumption. }
  destruct (parse_i64 f) as [z|] eqn:Ei.
  { destruct (parse_i64_sound _ _ Ei) as [Hi Hz]. unfold json_int. destruct (Z.ltb_spec z 0).
    - constructor; [exact Hi | lia].
    - constructor; [rewrite Z2N.id by assumption; exact Hi | lia]. }
  assert (Text : (forall neg D e nd, parse_f64 f = Some (FDec neg D e nd) -> f64_finiteb nd D e = false) ->
                 coerced f (JStr f)).
  { intros Hno. apply CoS. intros [neg [D [e [Sp Fin]]]].
    destruct (parse_f64_complete _ _ _ _ Sp) as [nd E].
    apply (f64_finiteb_spec nd D e (proj2 (parse_f64_sound _ _ _ _ _ E))) in Fin.
    rewrite (Hno _ _ _ _ E) in Fin. discriminate Fin. }
  destruct (parse_f64 f) as [[neg D e nd| |]|] eqn:Ef; try (apply Text; congruence).
  destruct (f64_finiteb nd D e) eqn:Efin; [|apply Text; congruence].
  destruct (parse_f64_sound _ _ _ _ _ Ef) as [Sp B].
  apply CoF; [|exact Sp | apply (f64_finiteb_spec nd D e B), Efin].
  intros [z [Hi Hz]]. pose proof (coerce_int_value f z Hi Hz) as H.
  rewrite coerce_field_eq, Eu, Ei, Ef, Efin in H. unfold json_int in H. destruct (z <? 0)%Z; discriminate H.
Qed.

Definition is_number (j : json) : bool :=
  match j with JU _ | JI _ | JF _ _ _ => true | _ => false end.

Theorem coerce_number_iff : forall f,
  is_number (coerce_field f) = true <-> exists neg D e, spells f neg D e /\ dec_finite D e.
Proof.
  intros f. destruct (coerce_field_spec f) as [n Hi Hn | z Hi Hz | neg D e Sp Fin | Hno]; cbn [is_number].
  1, 2: split; [intros _|reflexivity]; destruct (int_spelling_finite _ _ Hi) as [neg H]; [lia | eauto].
  - split; [intros _; eauto | reflexivity].
  - split; [discriminate | intros H; elim (Hno H)].
Qed.

Theorem coerce_text_otherwise : forall f, is_number (coerce_field f) = false -> coerce_field f = JStr f.
Proof. intros f. destruct (coerce_field_spec f); [discriminate.. | reflexivity]. Qed.

Theorem coerce_int_sound : forall f,
  (forall n, coerce_field f = JU n -> int_spelling f (Z.of_N n) /\ n < 2 ^ 64) /\
  (forall z, coerce_field f = JI z -> int_spelling f z /\ (- 2 ^ 63 <= z < 0)%Z).
Proof.
  intros f. destruct (coerce_field_spec f); split; intros x [= <-]; split; assumption.
Qed.

Theorem coerce_float_sound : forall f neg D e, coerce_field f = JF neg D e ->
  spells f neg D e /\ dec_finite D e /\
  ~ (exists z, int_spelling f z /\ (- 2 ^ 63 <= z < 2 ^ 64)%Z).
Proof.
  intros f neg D e H. destruct (coerce_field_spec f); try discriminate H. injection H as <- <- <-. auto.
Qed.

Definition num_char (b : N) : bool :=
  digitb b || (b =? 43) || (b =? 45) || (b =? 46) || (b =? 101) || (b =? 69).

Lemma digits_num_chars : forall ds, digits ds -> forallb num_char ds = true.
Proof. apply forallb_impl. intros b H. unfold num_char. rewrite H. reflexivity. Qed.

Lemma sign_num_chars : forall s neg, sign_of s neg -> forallb num_char s = true.
Proof. intros s neg H. destruct H; reflexivity. Qed.

Lemma spells_alphabet : forall f neg D e, spells f neg D e -> forallb num_char f = true.
Proof.
  intros f neg D e H. destruct H as [sg neg ip fr fp ex ev Hsg Hip Hfr Hne Hex].
  rewrite !forallb_app. rewrite (sign_num_chars _ _ Hsg), (digits_num_chars _ Hip). cbn [andb].
  apply andb_true_iff. split.
  - destruct Hfr; [reflexivity|]. cbn [forallb]. rewrite (digits_num_chars _ H). reflexivity.
  - destruct Hex as [|c s neg' ds Hc Hs Hds Hdne]; [reflexivity|]. cbn [forallb]. rewrite forallb_app.
    rewrite (sign_num_chars _ _ Hs), (digits_num_chars _ Hds).
    destruct Hc; subst c; reflexivity.
Qed.

Theorem coerce_foreign_char_text : forall f, forallb num_char f = false -> coerce_field f = JStr f.
Proof.
  intros f H. apply coerce_text_otherwise. destruct (is_number (coerce_field f)) eqn:E; [|reflexivity].
  apply coerce_number_iff in E. destruct E as [neg [D [e [Sp _]]]].
  rewrite (spells_alphabet _ _ _ _ Sp) in H. discriminate.
Qed.

(* decidability of the grammar through the model (used for the negative Examples) *)
Definition number_spellingb (f : list N) : bool :=
  match parse_f64 f with Some (FDec _ _ _ _) => true | _ => false end.

Theorem number_spelling_dec : forall f, number_spelling f <-> number_spellingb f = true.
Proof.
  intros f. unfold number_spelling, number_spellingb. split.
  - intros [neg [D [e Sp]]]. destruct (parse_f64_complete f neg D e Sp) as [nd E]. rewrite E. reflexivity.
  - intros H. destruct (parse_f64 f) as [[neg D e nd| |]|] eqn:E; try discriminate.
    exists neg, D, e. exact (proj1 (parse_f64_sound _ _ _ _ _ E)).
Qed.

Definition coerce_row (r : record) : json := JArr (map coerce_field r).
Definition text_row (r : record) : json := JArr (map JStr r).

(* without a header row, and past it, every row is coerced *)
Lemma map_rows_coerced : forall hdr rows idx, hdr && (idx =? 0) = false ->
  map_rows hdr idx rows = map coerce_row rows.
Proof.
  intros hdr rows. induction rows as [|r rs IH]; intros idx H; [reflexivity|].
  cbn [map_rows map]. rewrite H, IH; [reflexivity|].
  replace (idx + 1 =? 0) with false by lia. apply andb_false_r.
Qed.

Theorem header_textual : forall r rs,
  map_csv true (r :: rs) = JArr (text_row r :: map coerce_row rs).
Proof. intros r rs. unfold map_csv. cbn [map_rows]. rewrite map_rows_coerced by reflexivity. reflexivity. Qed.

Theorem no_header_all_coerced : forall rows, map_csv false rows = JArr (map coerce_row rows).
Proof. intros rows. unfold map_csv. rewrite map_rows_coerced by reflexivity. reflexivity. Qed.

Definition scalar (j : json) : bool := match j with JArr _ => false | _ => true end.

Lemma coerce_scalar : forall f, scalar (coerce_field f) = true.
Proof. intros f. destruct (coerce_field_spec f); reflexivity. Qed.

Lemma map_rows_shape : forall hdr rows idx, exists l : list (list json),
  map_rows hdr idx rows = map JArr l /\ map (@length _) l = map (@length _) rows /\
  forallb (forallb scalar) l = true.
Proof.
  intros hdr rows. induction rows as [|r rs IH]; intros idx; [exists []; repeat split|].
  destruct (IH (idx + 1)) as [l [H1 [H2 H3]]].
  exists (map (fun f => if hdr && (idx =? 0) then JStr f else coerce_field f) r :: l).
  cbn [map_rows map forallb]. rewrite H1, H2, H3, map_length, andb_true_r.
  split; [reflexivity|]. split; [reflexivity|].
  apply forallb_forall. intros j Hj. apply in_map_iff in Hj. destruct Hj as [f [<- _]].
  destruct (hdr && (idx =? 0)); [reflexivity | apply coerce_scalar].
Qed.

(* the mapped document is an array with one array per record, holding one scalar per field *)
Theorem map_csv_shape : forall hdr rows, exists l : list (list json),
  map_csv hdr rows = JArr (map JArr l) /\ map (@length _) l = map (@length _) rows /\
  forallb (forallb scalar) l = true.
Proof.
  intros hdr rows. destruct (map_rows_shape hdr rows 0) as [l [H1 H]].
  exists l. unfold map_csv. rewrite H1. split; [reflexivity | exact H].
Qed.

Theorem csv_is_json_of_map :
  forall (schema options : Type) (validate_json : schema -> options -> json -> bool)
         (sc : schema) (opts : options) (text : list N) (hdr : bool),
  exists rows, read_csv text = Some rows /\
    validate_csv schema options validate_json sc opts text hdr = validate_json sc opts (map_csv hdr rows).
Proof.
  intros schema options vj sc opts text hdr.
  destruct (read_csv text) as [rows|] eqn:E; [|exfalso; exact (read_csv_total text E)].
  exists rows. split; [reflexivity|]. unfold validate_csv, parse_csv_to_json. rewrite E. reflexivity.
Qed.
