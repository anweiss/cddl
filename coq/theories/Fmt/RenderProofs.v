(* C06 - proofs about the literal renderers (Fmt/Render.v) against the specification parsers (Fmt/LitParse.v). *)
From Cddl Require Import Base.Bytes Base.Lists Fmt.Render Fmt.LitParse.
From Coq Require Import ZifyBool ZifyNat ZifyN.
Open Scope N_scope.

Lemma dec_val_app : forall l1 l2 a, dec_val a (l1 ++ l2) = dec_val (dec_val a l1) l2.
Proof. induction l1 as [|x l IH]; intros l2 a; cbn [app dec_val]; [reflexivity|apply IH]. Qed.

Lemma dec_syntax_nz : forall l, forallb is_digit l = true -> l <> [] -> hd 0 l <> 48 -> dec_syntax l = true.
Proof.
  intros l A B C. destruct l as [|c r]; [congruence|]. cbn [forallb] in A. apply andb_prop in A as [A1 A2].
  destruct r as [|c2 r]; [exact A1|]. unfold dec_syntax. rewrite A2. cbn [hd] in C. unfold is_digit in A1. lia.
Qed.

Lemma dec_syntax_hd : forall l, dec_syntax l = true -> is_digit (hd 0 l) = true.
Proof. intros [|c [|c2 r]] H; [discriminate|exact H|]. cbn [dec_syntax hd] in *. unfold is_digit. lia. Qed.

Lemma dec_syntax_digits : forall l, dec_syntax l = true -> forallb is_digit l = true.
Proof. intros [|c [|c2 r]] H; [discriminate|..]; cbn [dec_syntax forallb] in *; unfold is_digit in *; lia. Qed.

Lemma dec_fuel_S : forall f n acc,
  dec_fuel (S f) n acc = if n <? 10 then (48 + n) :: acc else dec_fuel f (n / 10) ((48 + n mod 10) :: acc).
Proof. reflexivity. Qed.

Definition digits_ok (n : N) (ds : list N) : Prop :=
  forallb is_digit ds = true /\ dec_val 0 ds = n /\ ds <> [] /\ (0 < n -> hd 0 ds <> 48).

Lemma digits_ok_snoc : forall q r ds, digits_ok q ds -> 0 < q -> r < 10 -> digits_ok (q * 10 + r) (ds ++ [48 + r]).
Proof.
  intros q r ds (A & C & B & D) Hq Hr. unfold digits_ok. rewrite forallb_app, A, dec_val_app, C.
  unfold is_digit. cbn [forallb dec_val]. rewrite (N.add_comm 48), N.add_sub. destruct ds as [|c ds]; [congruence|].
  repeat split; [clear - Hr; lia|discriminate|intros _; apply D, Hq].
Qed.

Lemma dec_fuel_digits : forall f n acc, n < 2 ^ N.of_nat f ->
  exists ds, dec_fuel (S f) n acc = ds ++ acc /\ digits_ok n ds.
Proof.
  induction f as [|f IH]; intros n acc Hn; rewrite dec_fuel_S; destruct (n <? 10) eqn:E.
  1, 3: exists [48 + n]; unfold digits_ok, is_digit; cbn [forallb dec_val hd]; repeat split; try lia; discriminate.
  - cbn in Hn. lia.
  - destruct (IH (n / 10) ((48 + n mod 10) :: acc)) as (ds & E1 & H).
    { apply N.div_lt_upper_bound; [discriminate|]. rewrite Nnat.Nat2N.inj_succ, N.pow_succ_r' in Hn. lia. }
    exists (ds ++ [48 + n mod 10]). rewrite E1, <- app_assoc. split; [reflexivity|].
    rewrite <- (div_mod_join n 10) at 1. apply digits_ok_snoc; [exact H| |apply N.mod_lt; discriminate].
    apply N.div_str_pos. lia.
Qed.

Lemma render_uint_spec : forall n, digits_ok n (render_uint n).
Proof.
  intros n. destruct (dec_fuel_digits (N.to_nat (N.size n)) n []) as (ds & E & H).
  - rewrite Nnat.N2Nat.id. apply N.size_gt.
  - rewrite app_nil_r in E. unfold render_uint. rewrite E. exact H.
Qed.

Lemma render_uint_digits : forall n, forallb is_digit (render_uint n) = true.
Proof. intros n. apply render_uint_spec. Qed.

Lemma render_uint_val : forall n, dec_val 0 (render_uint n) = n.
Proof. intros n. apply render_uint_spec. Qed.

Lemma render_uint_syntax : forall n, dec_syntax (render_uint n) = true.
Proof.
  intros [|p]; [reflexivity|]. destruct (render_uint_spec (N.pos p)) as (A & _ & B & D).
  apply dec_syntax_nz; [exact A|exact B|apply D; lia].
Qed.

Lemma render_uint_nonempty : forall n, render_uint n <> [].
Proof. intros n. apply render_uint_spec. Qed.

Lemma render_uint_small : forall m, m < 10 -> render_uint m = [48 + m].
Proof. intros m H. unfold render_uint. rewrite dec_fuel_S. apply N.ltb_lt in H. rewrite H. reflexivity. Qed.

Lemma parse_uint_render : forall n, n < two64 -> parse_uint (render_uint n) = Some n.
Proof.
  intros n Hn. unfold parse_uint. rewrite render_uint_syntax, render_uint_val. cbv zeta.
  apply N.ltb_lt in Hn. rewrite Hn. reflexivity.
Qed.

Lemma digits_no_mark : forall l, forallb is_digit l = true -> has_float_mark l = false.
Proof.
  induction l as [|c l IH]; intros H; [reflexivity|].
  cbn [forallb] in H. apply andb_prop in H as [H1 H2]. cbn [has_float_mark existsb].
  unfold has_float_mark in IH. rewrite (IH H2). unfold is_digit in H1. clear - H1. lia.
Qed.

(* a literal that starts with a digit, or with '-' and a digit, is a number: none of the other forms starts so *)
Lemma parse_lit_number : forall neg l, is_digit (hd 0 l) = true ->
  parse_lit (sign neg ++ l) = if neg then parse_neg_number l else parse_pos_number l.
Proof.
  intros neg [|c r] H; [discriminate|]. destruct neg; [reflexivity|]. cbn [hd sign app] in *.
  assert (D : In c [48; 49; 50; 51; 52; 53; 54; 55; 56; 57]) by (unfold is_digit in H; cbn [In]; lia).
  cbn [In] in D. repeat (destruct D as [<-|D]; [reflexivity|]). contradiction.
Qed.

Theorem render_uint_rt : forall n, n < two64 -> parse_lit (render_lit (LUint n)) = Some (LUint n).
Proof.
  intros n Hn. change (render_lit (LUint n)) with (sign false ++ render_uint n).
  rewrite parse_lit_number by apply dec_syntax_hd, render_uint_syntax.
  unfold parse_pos_number. rewrite digits_no_mark, parse_uint_render by (apply render_uint_digits || exact Hn).
  reflexivity.
Qed.

(* FULL STATEMENT (false of the code): forall z, -2^63 <= z < 2^63 -> parse_lit (render_lit (LInt z)) = Some (LInt z).
   An IntValue that is not negative prints without a sign and is read back as an unsigned literal
   (`-0` is stored as IntValue 0 and printed `0`). *)
Theorem render_int_rt_partial : forall z, (- Z.of_N two63 <= z < 0)%Z -> parse_lit (render_lit (LInt z)) = Some (LInt z).
Proof.
  intros z Hz. destruct z as [|p|p]; try lia. change (render_lit (LInt (Z.neg p))) with (sign true ++ render_uint (N.pos p)).
  rewrite parse_lit_number by apply dec_syntax_hd, render_uint_syntax.
  unfold parse_neg_number. rewrite digits_no_mark, render_uint_syntax, render_uint_val by apply render_uint_digits.
  cbv zeta. replace (N.pos p <=? two63) with true by (unfold two63 in *; lia). reflexivity.
Qed.

Theorem render_int_rt_refuted : exists z, (- Z.of_N two63 <= z < Z.of_N two63)%Z /\ parse_lit (render_lit (LInt z)) <> Some (LInt z).
Proof. exists 0%Z. split; [unfold two63; lia|]. vm_compute. discriminate. Qed.

Lemma escape_self : forall c l, (c =? 34) || (c =? 92) = true -> escape (c :: l) = Some ([c], l).
Proof. intros c l H. apply orb_prop in H as [H|H]; apply N.eqb_eq in H; subst c; reflexivity. Qed.

Lemma text_body_escaped : forall s f, (length (escape_text s) < f)%nat ->
  text_body f (escape_text s ++ [34]) = Some s.
Proof.
  induction s as [|c s IH]; intros [|f] Hf; [lia|reflexivity|lia|].
  change (escape_text (c :: s)) with ((if (c =? 34) || (c =? 92) then [92; c] else [c]) ++ escape_text s) in *.
  destruct ((c =? 34) || (c =? 92)) eqn:E; cbn [app length] in *; cbn [text_body].
  - change (92 =? 34) with false. change (92 =? 92) with true. cbv iota.
    rewrite (escape_self _ _ E), IH by lia. reflexivity.
  - apply orb_false_elim in E as [E1 E2]. rewrite E1, E2, IH by lia. reflexivity.
Qed.

(* every stored text value (any byte string) is read back unchanged: quotes and backslashes are re-escaped *)
Theorem render_text_rt : forall s, parse_lit (render_lit (LText s)) = Some (LText s).
Proof.
  intros s. cbn [render_lit render_text app]. cbn [parse_lit parse_text].
  rewrite (text_body_escaped s); [reflexivity|]. rewrite app_length. cbn. lia.
Qed.

Definition no_squote (s : list N) : bool := forallb (fun c => negb (c =? 39)) s.

Lemma quoted_body_plain : forall s, no_squote s = true -> quoted_body (s ++ [39]) = Some s.
Proof.
  induction s as [|c s IH]; intros H; [reflexivity|].
  cbn [no_squote forallb] in H. apply andb_prop in H as [H1 H2]. cbn [app quoted_body].
  destruct (c =? 39) eqn:E; [cbn in H1; discriminate|]. rewrite (IH H2). reflexivity.
Qed.

(* FULL STATEMENT (false of the code): forall bs, parse_lit (render_lit (LBytes BU bs)) = Some (LBytes BU bs).
   A value containing an apostrophe (source form h"it's") prints as 'it's'. *)
Theorem render_bytes_utf8_rt_partial : forall bs, no_squote bs = true ->
  parse_lit (render_lit (LBytes BU bs)) = Some (LBytes BU bs).
Proof.
  intros bs H. cbn [render_lit render_bytes app]. cbn [parse_lit]. rewrite (quoted_body_plain _ H). reflexivity.
Qed.

Theorem render_bytes_utf8_rt_refuted : exists bs, parse_lit (render_lit (LBytes BU bs)) <> Some (LBytes BU bs).
Proof. exists [105; 116; 39; 115]. vm_compute. discriminate. Qed.

Definition char_ok (dec : N -> option N) (enc : N -> N) (s : N) : bool :=
  match dec (enc s) with Some v => (v =? s) && negb (enc s =? 39) && negb (is_ws (enc s)) | None => false end.

Lemma char_table : forall dec enc n, forallb (char_ok dec enc) (map N.of_nat (seq 0 n)) = true ->
  forall s, s < N.of_nat n -> dec (enc s) = Some s /\ (enc s =? 39) = false /\ is_ws (enc s) = false.
Proof.
  intros dec enc n T s H. rewrite forallb_forall in T.
  assert (I : In s (map N.of_nat (seq 0 n))) by (apply in_map_iff; exists (N.to_nat s); split; [lia|apply in_seq; lia]).
  apply T in I. unfold char_ok in I. destruct (dec (enc s)) as [v|]; [|discriminate].
  apply andb_prop in I as [[T1 T2]%andb_prop T3]. apply N.eqb_eq in T1. apply negb_true_iff in T2, T3. subst v. auto.
Qed.

Lemma hexdigit_ok : forall d, d < 16 ->
  hexval (hexdigit d) = Some d /\ (hexdigit d =? 39) = false /\ is_ws (hexdigit d) = false.
Proof. exact (char_table hexval hexdigit 16 eq_refl). Qed.

Lemma b64_val_char : forall s, s < 64 -> b64_val (b64url_char s) = Some s.
Proof. intros s H. apply (char_table b64_val b64url_char 64 eq_refl s H). Qed.

(* the apostrophe has no base64 value *)
Lemma b64_char_quote : forall s, s < 64 -> (b64url_char s =? 39) = false.
Proof. intros s H. apply N.eqb_neq. intros E. pose proof (b64_val_char s H) as V. rewrite E in V. discriminate V. Qed.

Lemma byte_parts : forall b, b < 256 ->
  b / 4 < 64 /\ b mod 4 < 4 /\ b / 16 < 16 /\ b mod 16 < 16 /\ b / 64 < 4 /\ b mod 64 < 64.
Proof. intros b H. repeat split; (apply N.div_lt_upper_bound || apply N.mod_lt); (discriminate || exact H). Qed.

Lemma hex_body_render : forall bs, wf_bytes bs -> hex_body None (hexbytes bs ++ [39]) = Some bs.
Proof.
  induction bs as [|b bs IH]; intros H; [reflexivity|]. apply Forall_cons_iff in H as [Hb H].
  apply byte_parts in Hb as (_ & _ & H1 & H0 & _).
  destruct (hexdigit_ok _ H1) as (A1 & A2 & A3). destruct (hexdigit_ok _ H0) as (B1 & B2 & B3).
  change (hexbytes (b :: bs)) with (hexdigit (b / 16) :: hexdigit (b mod 16) :: hexbytes bs).
  cbn [app hex_body]. rewrite A1, A2, A3. cbn [hex_body]. rewrite B1, B2, B3, (IH H), div_mod_join.
  reflexivity.
Qed.

Theorem render_bytes_hex_rt : forall bs, wf_bytes bs -> parse_lit (render_lit (LBytes BH bs)) = Some (LBytes BH bs).
Proof.
  intros bs H. cbn [render_lit render_bytes app]. cbn [parse_lit]. rewrite (hex_body_render _ H). reflexivity.
Qed.

(* b64_body on characters of the alphabet, by the pieces of the bytes a = a1*4 + a0, b = b1*16 + b0, c = c1*64 + c0:
   a full group of four characters, and the two short groups that may end the literal *)
Lemma b64_body_group : forall a1 a0 b1 b0 c1 c0 l, a1 < 64 -> a0 < 4 -> b1 < 16 -> b0 < 16 -> c1 < 4 -> c0 < 64 ->
  b64_body (b64url_char a1 :: b64url_char (a0 * 16 + b1) :: b64url_char (b0 * 4 + c1) :: b64url_char c0 :: l) =
  match b64_body l with Some t => Some (a1 * 4 + a0 :: b1 * 16 + b0 :: c1 * 64 + c0 :: t) | None => None end.
Proof.
  intros. cbn [b64_body].
  rewrite !b64_char_quote, !b64_val_char, (div_pack 16), (mod_pack 16), (div_pack 4), (mod_pack 4) by lia. reflexivity.
Qed.

Lemma b64_body_three : forall a1 a0 b1 b0, a1 < 64 -> a0 < 4 -> b1 < 16 -> b0 < 16 ->
  b64_body [b64url_char a1; b64url_char (a0 * 16 + b1); b64url_char (b0 * 4); 39] = Some [a1 * 4 + a0; b1 * 16 + b0].
Proof.
  intros. cbn [b64_body].
  rewrite !b64_char_quote, !b64_val_char, (div_pack 16), (mod_pack 16), N.div_mul, N.mod_mul by lia. reflexivity.
Qed.

Lemma b64_body_two : forall a1 a0, a1 < 64 -> a0 < 4 ->
  b64_body [b64url_char a1; b64url_char (a0 * 16); 39] = Some [a1 * 4 + a0].
Proof.
  intros. cbn [b64_body]. rewrite b64_char_quote, !b64_val_char, N.div_mul, N.mod_mul by lia. reflexivity.
Qed.

Lemma b64_body_render : forall bs, wf_bytes bs -> b64_body (b64_enc bs ++ [39]) = Some bs.
Proof.
  induction bs as [|a|a b|a b c r IH] using list_ind3; intros H; [reflexivity|..];
    repeat (apply Forall_cons_iff in H as [Hb H]; apply byte_parts in Hb as (? & ? & ? & ? & ? & ?)); cbn [b64_enc app].
  - rewrite b64_body_two, div_mod_join by assumption. reflexivity.
  - rewrite b64_body_three, !div_mod_join by assumption. reflexivity.
  - rewrite b64_body_group, (IH H), !div_mod_join by assumption. reflexivity.
Qed.

Theorem render_bytes_b64_rt : forall bs, wf_bytes bs -> parse_lit (render_lit (LBytes BB bs)) = Some (LBytes BB bs).
Proof.
  intros bs H. cbn [render_lit render_bytes app]. cbn [parse_lit]. rewrite (b64_body_render bs H). reflexivity.
Qed.

Lemma span_digits_app : forall a r, forallb is_digit a = true -> is_digit (hd 0 r) = false -> span_digits (a ++ r) = (a, r).
Proof.
  induction a as [|c a IH]; intros r H Hr.
  - destruct r as [|c r]; [reflexivity|]. cbn [app span_digits]. cbn [hd] in Hr. rewrite Hr. reflexivity.
  - cbn [forallb] in H. apply andb_prop in H as [H1 H2]. cbn [app span_digits]. rewrite H1, (IH r H2 Hr). reflexivity.
Qed.

Lemma span_digits_all : forall a, forallb is_digit a = true -> span_digits a = (a, []).
Proof. intros a H. rewrite <- (app_nil_r a) at 1. apply span_digits_app; [exact H|reflexivity]. Qed.

Lemma zeros_succ : forall n, zeros (N.succ n) = 48 :: zeros n.
Proof. intros n. unfold zeros. rewrite N.iter_succ. reflexivity. Qed.

Lemma zeros_digits : forall n, forallb is_digit (zeros n) = true.
Proof. induction n as [|n IH] using N.peano_ind; [reflexivity|]. rewrite zeros_succ. cbn [forallb]. rewrite IH. reflexivity. Qed.

Lemma zeros_length : forall n, lenN (zeros n) = n.
Proof. induction n as [|n IH] using N.peano_ind; [reflexivity|]. rewrite zeros_succ, lenN_cons, IH. lia. Qed.

Lemma dec_val_zeros : forall n a, dec_val a (zeros n) = a * 10 ^ n.
Proof.
  induction n as [|n IH] using N.peano_ind; intros a.
  - cbn. lia.
  - rewrite zeros_succ. cbn [dec_val]. rewrite IH, N.pow_succ_r'. lia.
Qed.

Lemma has_mark_dot : forall a b, has_float_mark (a ++ 46 :: b) = true.
Proof. intros a b. unfold has_float_mark. rewrite existsb_app. cbn [existsb]. rewrite orb_true_r. reflexivity. Qed.

Lemma mod10_pos : forall m, m mod 10 <> 0 -> 0 < m.
Proof. intros [|p] H; [contradiction H|]; reflexivity. Qed.

Lemma strip_zeros_id : forall f m e, m mod 10 <> 0 -> strip_zeros (S f) m e = (m, e).
Proof.
  intros f m e Hm. pose proof (mod10_pos m Hm). cbn [strip_zeros].
  replace (m =? 0) with false by lia. replace (m mod 10 =? 0) with false by lia. reflexivity.
Qed.

Lemma strip_zeros_step : forall f m e, m <> 0 -> strip_zeros (S f) (m * 10) e = strip_zeros f m (e + 1).
Proof.
  intros f m e Hm. cbn [strip_zeros]. replace (m * 10 =? 0) with false by lia.
  rewrite N.mod_mul, N.div_mul by discriminate. reflexivity.
Qed.

Lemma strip_zeros_pow : forall k f m e, m mod 10 <> 0 -> (N.to_nat k < f)%nat ->
  strip_zeros f (m * 10 ^ k) e = (m, (e + Z.of_N k)%Z).
Proof.
  induction k as [|k IH] using N.peano_ind; intros [|f] m e Hm Hf; [lia| |lia|].
  - rewrite N.pow_0_r, N.mul_1_r, Z.add_0_r. apply strip_zeros_id, Hm.
  - rewrite N.pow_succ_r', (N.mul_comm 10), N.mul_assoc, strip_zeros_step, IH; [f_equal; lia|exact Hm|lia|].
    apply N.neq_mul_0. split; [intros ->; exact (Hm eq_refl)|apply N.pow_nonzero; discriminate].
Qed.

Lemma parse_float_body_dot : forall neg ip fp, dec_syntax ip = true -> forallb is_digit fp = true -> fp <> [] ->
  parse_float_body neg (ip ++ 46 :: fp) =
  let (m, e) := strip_zeros (S (length (ip ++ fp))) (dec_val 0 (ip ++ fp)) (0 - Z.of_N (lenN fp)) in Some (FFin neg m e).
Proof.
  intros neg ip fp Hs Hf Hn. unfold parse_float_body.
  rewrite (span_digits_app ip (46 :: fp) (dec_syntax_digits ip Hs) eq_refl), Hs, (span_digits_all fp Hf).
  destruct fp as [|c fp]; [congruence|reflexivity].
Qed.

Lemma parse_lit_float : forall neg ip fp m e, dec_syntax ip = true -> forallb is_digit fp = true -> fp <> [] ->
  strip_zeros (S (length (ip ++ fp))) (dec_val 0 (ip ++ fp)) (0 - Z.of_N (lenN fp)) = (m, e) ->
  parse_lit (sign neg ++ ip ++ 46 :: fp) = Some (LFloat (FFin neg m e)).
Proof.
  intros neg ip fp m e Hs Hf Hn Hv. rewrite parse_lit_number.
  - destruct neg; unfold parse_neg_number, parse_pos_number;
      rewrite has_mark_dot, parse_float_body_dot, Hv by assumption; reflexivity.
  - destruct ip; [discriminate|]. apply (dec_syntax_hd _ Hs).
Qed.

Definition fl_canon (m : N) (e : Z) : Prop := m mod 10 <> 0 \/ (m = 0 /\ e = 0%Z).

Lemma float_integral_rt : forall neg m n, fl_canon m (Z.of_N n) ->
  parse_lit (sign neg ++ render_uint m ++ zeros n ++ [46; 48]) = Some (LFloat (FFin neg m (Z.of_N n))).
Proof.
  intros neg m n [Hm|[-> Hn]].
  2:{ (* zero: the literal is 0.0 or -0.0 *) destruct n; [|discriminate]. destruct neg; reflexivity. }
  destruct (render_uint_spec m) as (A & C & B & D). set (ds := render_uint m) in *.
  rewrite (app_assoc ds). apply parse_lit_float; [|reflexivity|discriminate|].
  - destruct ds as [|c r]; [congruence|].
    apply dec_syntax_nz; [rewrite forallb_app, A; apply zeros_digits|discriminate|apply D, mod10_pos, Hm].
  - (* the digits read as m * 10^(n+1), one zero more than the exponent: the one after the point *)
    rewrite !dec_val_app, C, dec_val_zeros. cbn [dec_val]. change (48 - 48) with 0.
    rewrite N.add_0_r, <- N.mul_assoc, (N.mul_comm _ 10), <- N.pow_succ_r' by apply N.le_0_l.
    rewrite strip_zeros_pow; [f_equal; change (lenN [48]) with 1; clear; lia|exact Hm|].
    pose proof (zeros_length n) as L. unfold lenN in L. rewrite !app_length. cbn [length]. clear - L. lia.
Qed.

(* a spelling ip.fp whose digits give m, not a multiple of ten, is already in normal form *)
Lemma parse_lit_fraction : forall neg ip fp m p, m mod 10 <> 0 -> dec_syntax ip = true -> forallb is_digit fp = true ->
  dec_val 0 (ip ++ fp) = m -> lenN fp = N.pos p ->
  parse_lit (sign neg ++ ip ++ 46 :: fp) = Some (LFloat (FFin neg m (Z.neg p))).
Proof.
  intros neg ip fp m p Hm Hs Hf Hv L. apply parse_lit_float; [exact Hs|exact Hf| |].
  - intros ->. discriminate L.
  - rewrite Hv, L. apply strip_zeros_id, Hm.
Qed.

Lemma float_fraction_rt : forall neg m p, m mod 10 <> 0 ->
  parse_lit (render_float (FFin neg m (Z.neg p))) = Some (LFloat (FFin neg m (Z.neg p))).
Proof.
  intros neg m p Hm. cbn [render_float].
  destruct (render_uint_spec m) as (A & C & _ & D). set (ds := render_uint m) in *.
  assert (D' : hd 0 ds <> 48) by apply D, mod10_pos, Hm.
  destruct (N.pos p <? lenN ds) eqn:Ek.
  - (* the point falls inside the digits *)
    set (j := N.to_nat (lenN ds - N.pos p)).
    assert (L : lenN (skipn j ds) = N.pos p) by (unfold j, lenN in *; rewrite skipn_length; clear - Ek; lia).
    pose proof (firstn_skipn j ds) as S. destruct (firstn j ds) as [|c ip].
    { (* nothing before the point: all of ds would stand behind it *)
      cbn [app] in S. rewrite <- S, L, N.ltb_irrefl in Ek. discriminate Ek. }
    rewrite <- S in A, C, D'. rewrite forallb_app in A. apply andb_prop in A as [A1 A2].
    apply parse_lit_fraction; [exact Hm|apply dec_syntax_nz; [exact A1|discriminate|exact D']|exact A2|exact C|exact L].
  - (* the digits start after the point, behind zeros *)
    apply (parse_lit_fraction neg [48] (zeros (N.pos p - lenN ds) ++ ds)); [exact Hm|reflexivity| | |].
    + rewrite forallb_app, zeros_digits. exact A.
    + (* the zeros in front count for nothing: 0 * 10 ^ k computes to 0 *)
      rewrite !dec_val_app, dec_val_zeros. exact C.
    + rewrite lenN_app, zeros_length. clear - Ek. lia.
Qed.

(* every finite float value (decimal normal form) is read back as the same float: integral values keep a ".0".
   Not covered: infinities and NaN have no CDDL spelling; since 4743917 the parser rejects literals that overflow,
   so an accepted document cannot contain them. *)
Theorem render_float_rt : forall neg m e, fl_canon m e ->
  parse_lit (render_lit (LFloat (FFin neg m e))) = Some (LFloat (FFin neg m e)).
Proof.
  intros neg m e Hc. destruct e as [|p|p].
  - exact (float_integral_rt neg m 0 Hc).
  - exact (float_integral_rt neg m (N.pos p) Hc).
  - apply float_fraction_rt. destruct Hc as [Hm|[_ He]]; [exact Hm|discriminate].
Qed.

Definition opt_bounded (c : option N) : Prop := match c with Some n => n < two64 | None => True end.

Definition bound_part (c : option N) : list N := match c with Some n => render_uint n | None => [] end.

Lemma bound_part_digits : forall c, forallb is_digit (bound_part c) = true.
Proof. intros [n|]; [apply render_uint_digits|reflexivity]. Qed.

Lemma opt_uint_render : forall c, opt_bounded c -> opt_uint (bound_part c) = Some c.
Proof.
  intros [n|] H; [|reflexivity]. cbn [bound_part]. unfold opt_uint. rewrite (parse_uint_render n H).
  pose proof (render_uint_nonempty n) as B. destruct (render_uint n); [congruence|reflexivity].
Qed.

Lemma split_star_app : forall a b, forallb is_digit a = true -> split_star (a ++ 42 :: b) = Some (a, b).
Proof.
  induction a as [|c a IH]; intros b H; [reflexivity|].
  cbn [forallb] in H. apply andb_prop in H as [H1 H2]. cbn [app split_star].
  destruct (c =? 42) eqn:E; [unfold is_digit in H1; lia|]. rewrite (IH b H2). reflexivity.
Qed.

(* a lone star is the named form, every other spelling with a star a range *)
Lemma parse_occur_range : forall a b, forallb is_digit a = true ->
  parse_occur (a ++ 42 :: b) =
  match opt_uint a, opt_uint b with
  | Some lo, Some hi => Some (match lo, hi with None, None => OStar | _, _ => OExact lo hi end)
  | _, _ => None
  end.
Proof.
  intros [|c a] b A.
  - destruct b as [|d b]; [reflexivity|]. cbv -[parse_uint]. destruct (parse_uint (d :: b)); reflexivity.
  - unfold parse_occur. rewrite (split_star_app _ _ A). cbn [forallb] in A. apply andb_prop in A as [Hc _].
    cbn [app list_eqb opt_uint]. unfold is_digit in Hc.
    replace (c =? 63) with false by lia. replace (c =? 43) with false by lia. replace (c =? 42) with false by lia.
    destruct (parse_uint (c :: a)); reflexivity.
Qed.

Definition occur_bounded (o : occur) : Prop :=
  match o with
  | OExact lo hi => (match lo with Some l => l < two64 | None => True end) /\ (match hi with Some u => u < two64 | None => True end)
  | _ => True
  end.

(* FULL STATEMENT (false of the model type, true of what the parser produces): forall o, parse_occur (render_occur o) = Some o.
   Occur::Exact{lower: None, upper: None} prints "*" which is read as ZeroOrMore; pest_bridge never builds that value. *)
Theorem render_occur_rt_partial : forall o, occur_bounded o -> o <> OExact None None ->
  parse_occur (render_occur o) = Some o.
Proof.
  intros [| | |lo hi] Hb Hne; try reflexivity. destruct Hb as [Hl Hu].
  replace (render_occur (OExact lo hi)) with (bound_part lo ++ 42 :: bound_part hi) by (destruct lo, hi; reflexivity).
  rewrite parse_occur_range, (opt_uint_render lo Hl), (opt_uint_render hi Hu) by apply bound_part_digits.
  destruct lo, hi; [reflexivity..|contradiction Hne; reflexivity].
Qed.

Theorem render_occur_rt_refuted : parse_occur (render_occur (OExact None None)) = Some OStar.
Proof. vm_compute. reflexivity. Qed.

Definition dot_part (c : option N) : list N := match c with Some n => 46 :: render_uint n | None => [] end.

Lemma parse_dot_uint_render : forall c, opt_bounded c -> parse_dot_uint (dot_part c) = Some c.
Proof.
  intros [n|] H; [|reflexivity]. cbn [dot_part parse_dot_uint]. rewrite (parse_uint_render n H). reflexivity.
Qed.

Lemma parse_tag_head_digit : forall d c, is_digit d = true -> opt_bounded c ->
  parse_tag_head (35 :: d :: dot_part c) = if d =? 54 then Some (TTagged c) else Some (TMajor (d - 48) c).
Proof. intros d c Hd Hc. cbn [parse_tag_head]. rewrite Hd, (parse_dot_uint_render c Hc). reflexivity. Qed.

Definition taghead_ok (t : taghead) : Prop :=
  match t with
  | TTagged c => match c with Some n => n < two64 | None => True end
  | TMajor m c => m < 10 /\ m <> 6 /\ match c with Some n => n < two64 | None => True end
  | TAny => True
  end.

(* FULL STATEMENT restricted to what the grammar can produce (major type one DIGIT; major type 6 is the tag form) *)
Theorem render_tag_head_rt : forall t, taghead_ok t -> parse_tag_head (render_tag_head t) = Some t.
Proof.
  intros [c|m c|] H; [| |reflexivity].
  - replace (render_tag_head (TTagged c)) with (35 :: 54 :: dot_part c) by (destruct c; reflexivity).
    exact (parse_tag_head_digit 54 c eq_refl H).
  - destruct H as (Hm & H6 & Hc).
    replace (render_tag_head (TMajor m c)) with (35 :: (48 + m) :: dot_part c)
      by (destruct c; cbn [render_tag_head dot_part app]; rewrite (render_uint_small m Hm); reflexivity).
    rewrite (parse_tag_head_digit _ c) by (exact Hc || (unfold is_digit; lia)).
    replace (48 + m =? 54) with false by lia. replace (48 + m - 48) with m by lia. reflexivity.
Qed.

(* `#6` and `#6.n` without content type print as their head only (no empty parentheses) *)
Theorem render_tagged_no_type_rt : forall c, (match c with Some n => n < two64 | None => True end) ->
  parse_tag_head (render_tagged c None) = Some (TTagged c).
Proof. intros c H. unfold render_tagged. rewrite app_nil_r. exact (render_tag_head_rt (TTagged c) H). Qed.

Theorem render_tag_head_major6_refuted : parse_tag_head (render_tag_head (TMajor 6 None)) = Some (TTagged None).
Proof. vm_compute. reflexivity. Qed.

Definition ctl_eqb (a b : ctl) : bool := list_eqb (ctl_name a) (ctl_name b).

(* ControlOperator::fmt followed by lookup_control_from_str is the identity on all 37 operators *)
Theorem render_ctl_rt : forall c, parse_ctl (render_ctl c) = Some c.
Proof. intros c. destruct c; vm_compute; reflexivity. Qed.

Lemma all_ctl_complete : forall c, In c all_ctl.
Proof. intros c. exact (proj1 (find_some _ _ (render_ctl_rt c))). Qed.

(* at the grammar level (cddl.pest's control_name: ordered choice + token boundary) the printed name followed by a blank
   is read back as the same operator, for all 37 operators and whatever follows the blank *)
Theorem render_ctl_peg_rt : forall c rest, peg_ctl (render_ctl c ++ 32 :: rest) = Some (c, 32 :: rest).
Proof. intros c rest. destruct c; reflexivity. Qed.

(* the token boundary: a name glued to an identifier character is not an operator (`.sizefoo`, `.abnfbstr`) *)
Example peg_ctl_needs_boundary : peg_ctl (render_ctl CAbnf ++ [98; 115; 116; 114]) = None
                                 /\ peg_ctl (render_ctl CCborseq ++ [32]) = Some (CCborseq, [32]).
Proof. vm_compute. split; reflexivity. Qed.

(* Type1::fmt writes a blank after every control operator, so whatever the controller starts with, the operator is read
   back as itself (`"x" .abnf bstr` prints `"x".abnf bstr`) *)
Theorem render_type1_ctl : forall name_like left c right,
  exists pre, render_type1 name_like left (render_ctl c) true right = pre ++ render_ctl c ++ 32 :: right /\
              peg_ctl (render_ctl c ++ 32 :: right) = Some (c, 32 :: right).
Proof.
  intros nl left c right. exists (left ++ if nl then [32] else []). split.
  - unfold render_type1. rewrite orb_true_r, <- !app_assoc. reflexivity.
  - apply render_ctl_peg_rt.
Qed.

Definition ident_ok (id : list N) : Prop := match id with [] => False | c :: _ => c <> 36 end.

(* parse_ident compares with the literal 36, that is, looks at the binary digits of c *)
Lemma parse_ident_plain : forall c r, c <> 36 ->
  parse_ident (c :: r) = Some (SNone, c :: r) /\ parse_ident (36 :: c :: r) = Some (SType, c :: r).
Proof.
  intros c r H. destruct c as [|p]; [split; reflexivity|].
  repeat (destruct p as [p|p|]; try (split; reflexivity)). congruence.
Qed.

Theorem render_ident_rt : forall s id, ident_ok id -> parse_ident (render_ident s id) = Some (s, id).
Proof.
  intros s id H. destruct id as [|c r]; [contradiction|]. destruct (parse_ident_plain c r H) as [P0 P1].
  destruct s; [exact P0|exact P1|reflexivity].
Qed.

Lemma parse_marked_name : forall l, hd 0 l <> 126 -> hd 0 l <> 38 ->
  parse_marked l = option_map (fun p => (MName, fst p, snd p)) (parse_ident l).
Proof.
  intros [|c r] H1 H2; [reflexivity|]. cbn [hd] in *. unfold parse_marked.
  replace (c =? 126) with false by lia. replace (c =? 38) with false by lia. reflexivity.
Qed.

(* plain names, ~name and &name are read back with their marker and socket *)
Theorem render_marked_rt : forall m s id, ident_ok id -> hd 0 id <> 126 -> hd 0 id <> 38 ->
  parse_marked (render_marked m s id) = Some (m, s, id).
Proof.
  intros m s id H H1 H2. destruct m; cbn [render_marked].
  - rewrite parse_marked_name, (render_ident_rt s id H); [reflexivity|..];
      destruct s; cbn [render_ident render_socket app hd]; (assumption || discriminate).
  - unfold render_unwrap, parse_marked. rewrite (render_ident_rt s id H). reflexivity.
  - unfold render_gname, parse_marked. rewrite (render_ident_rt s id H). reflexivity.
Qed.

Theorem render_cut_rt : forall b, parse_cut (render_cut b) = Some b.
Proof. intros [|]; vm_compute; reflexivity. Qed.

Theorem render_rangeop_rt : forall b, parse_rangeop (render_rangeop b) = Some b.
Proof. intros [|]; vm_compute; reflexivity. Qed.
