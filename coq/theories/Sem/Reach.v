(* C08, unreachable rules: the verdict of a type depends only on the rules reachable from it.
   R is any set of names that contains the references of the type and is closed under the rules'
   own references; two rule sets that resolve every name of R alike give the same answer at every
   fuel - so adding, removing, changing or reordering rules outside R is invisible. *)
From Cddl Require Import Sem.Syntax Sem.Validator Sem.Sem Sem.Complete Sem.Env.

Section Reach.
Variable R : name -> bool.

Fixpoint refs_in (t : ty) : bool :=
  match t with
  | TRef n => R n
  | TTag _ t' => refs_in t'
  | TOr a b => refs_in a && refs_in b
  | TCtl _ t' arg => refs_in t' && refs_in arg
  | TArr g | TMap g => grefs_in g
  | TAny | TMajor _ | TSimple _ | TFloat | TLit _ | TRange _ _ _ => true
  end
with grefs_in (g : grp) : bool :=
  match g with
  | GEmpty => true
  | GSeq a b | GOr a b => grefs_in a && grefs_in b
  | GOcc _ _ g' => grefs_in g'
  | GEnt k _ t => match k with Some k' => refs_in k' | None => true end && refs_in t
  | GRef n => R n
  end.

Definition def_refs_in (d : def) : bool :=
  match d with DType t => refs_in t | DGroup g => grefs_in g end.

Definition entry_in (en : entry) : bool := refs_in (e_key en) && refs_in (e_val en).

Variable jm : bool.
Variables e e' : env.
Hypothesis Hagree : forall n, R n = true -> lookup_all e n = lookup_all e' n.
Hypothesis Hclosed : forall n d, R n = true -> lookup_all e n = Some d -> def_refs_in d = true.

Definition alts_in (alts : list (list entry)) : Prop :=
  Forall (fun es => Forall (fun en => entry_in en = true) es) alts.

Lemma reach : forall f,
  (forall t v, refs_in t = true -> vt f jm e t v = vt f jm e' t v) /\
  (forall g vs, grefs_in g = true -> vseq f jm e g vs = vseq f jm e' g vs) /\
  (forall g lo hi c vs, grefs_in g = true -> vrep f jm e g lo hi c vs = vrep f jm e' g lo hi c vs) /\
  (forall es k v, Forall (fun en => entry_in en = true) es -> vcol f jm e es k v = vcol f jm e' es k v) /\
  (forall es ps, Forall (fun en => entry_in en = true) es -> vcols f jm e es ps = vcols f jm e' es ps) /\
  (forall alts ps, alts_in alts -> valts f jm e alts ps = valts f jm e' alts ps).
Proof.
  apply (same jm jm e e' refs_in grefs_in); try reflexivity.
  - intros n Hn. split; [exact (Hagree n Hn)|]. intros t. exact (Hclosed n _ Hn).
  - intros n Hn. split; [exact (Hagree n Hn)|]. intros g. exact (Hclosed n _ Hn).
Qed.

End Reach.

Theorem reach_sem R jm e e' t v :
  (forall n, R n = true -> lookup_all e n = lookup_all e' n) ->
  (forall n d, R n = true -> lookup_all e n = Some d -> def_refs_in R d = true) ->
  refs_in R t = true ->
  (MatchT jm e t v <-> MatchT jm e' t v) /\ (FailT jm e t v <-> FailT jm e' t v).
Proof. intros Ha Hc Ht. apply decider_eq_sem. intros f. exact (proj1 (reach R jm e e' Ha Hc f) t v Ht). Qed.

Fixpoint refs_in_all t : refs_in (fun _ => true) t = true
with grefs_in_all g : grefs_in (fun _ => true) g = true.
Proof.
  - destruct t; cbn [refs_in]; rewrite ?refs_in_all, ?grefs_in_all; reflexivity.
  - destruct g as [| a b | a b | lo hi g | [k|] c t | n]; cbn [grefs_in]; rewrite ?refs_in_all, ?grefs_in_all; reflexivity.
Qed.
