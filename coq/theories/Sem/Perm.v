(* C10: map validation does not depend on the order of the document's entries, and every physical
   pair is accounted for (over Sem.v). *)
From Cddl Require Import Base.Lists Sem.Syntax Sem.Validator Sem.Sem Sem.Env.
From Coq Require Import Permutation.

Section Perm.
Variable jm : bool.
Variable e : env.

Lemma ColsR_Forall2 es ps cols :
  ColsR jm e es ps cols <-> Forall2 (fun p c => ColR jm e es (fst p) (snd p) c) ps cols.
Proof.
  split; [induction 1|induction 1 as [|[k v] c ps cols H _ IH]]; constructor; assumption.
Qed.

Lemma counts_ok_perm es : forall i a a', Permutation a a' -> counts_ok es i a = counts_ok es i a'.
Proof.
  induction es as [|en es IH]; intros i a a' H; cbn [counts_ok]; [reflexivity|]. unfold count_idx.
  rewrite (proj1 (Permutation_count_occ Nat.eq_dec a a') H i), (IH (S i) a a' H). reflexivity.
Qed.

(* permuting the pairs permutes the columns, and with them the assignment *)
Lemma valid_perm es ps ps' cols a : Permutation ps ps' -> ColsR jm e es ps cols -> valid_assign es cols a = true ->
  exists cols' a', ColsR jm e es ps' cols' /\ valid_assign es cols' a' = true.
Proof.
  intros Hp HC HV. apply valid_assign_iff in HV as [HP HN].
  destruct (Permutation_Forall2 Hp (proj1 (ColsR_Forall2 _ _ _) HC)) as (cols' & Pc & HC').
  destruct (Permutation_Forall2 Pc (proj1 (pairs_ok_Forall2 _ _ _) HP)) as (a' & Pa & HP').
  exists cols', a'. split; [exact (proj2 (ColsR_Forall2 _ _ _) HC')|]. apply valid_assign_iff.
  split; [exact (proj2 (pairs_ok_Forall2 _ _ _) HP')|]. rewrite <- (counts_ok_perm es 0 a a' Pa). exact HN.
Qed.

Lemma alts_ok_perm alts ps ps' : Permutation ps ps' -> AltsOk jm e alts ps -> AltsOk jm e alts ps'.
Proof.
  intros Hp H. induction H as [es alts ps cols a HC HV|es alts ps H IH].
  - destruct (valid_perm es ps ps' cols a Hp HC HV) as (cols' & a' & HC' & HV'). exact (A_here _ _ _ _ _ _ _ HC' HV').
  - exact (A_later _ _ _ _ _ (IH Hp)).
Qed.

Theorem map_perm_doc g ps ps' : Permutation ps ps' ->
  (MatchT jm e (TMap g) (VMap ps) <-> MatchT jm e (TMap g) (VMap ps')).
Proof.
  assert (D : forall qs qs', Permutation qs qs' -> MatchT jm e (TMap g) (VMap qs) -> MatchT jm e (TMap g) (VMap qs')).
  { intros qs qs' Hq H. inversion H as [? ? L| | | | | | | | |? ? f alts Hf Ha]; subst; [discriminate|].
    exact (M_map _ _ _ _ _ _ Hf (alts_ok_perm _ _ _ Hq Ha)). }
  intros Hp. split; apply D; [exact Hp|apply Permutation_sym; exact Hp].
Qed.

(* no pair is dropped or merged: a valid assignment assigns every physical pair of the document *)
Theorem no_collapse es ps cols a : ColsR jm e es ps cols -> valid_assign es cols a = true -> length a = length ps.
Proof.
  intros HC HV. apply valid_assign_iff in HV as [HP _].
  rewrite <- (Forall2_length _ _ _ (proj1 (pairs_ok_Forall2 _ _ _) HP)). symmetry.
  exact (Forall2_length _ _ _ (proj1 (ColsR_Forall2 _ _ _) HC)).
Qed.

End Perm.
