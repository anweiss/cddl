(* C08: naming and rule order are semantically transparent (over Sem.v). *)
From Cddl Require Import Sem.Syntax Sem.Sem Sem.Env Sem.Reach.
From Coq Require Import Permutation.

(* reach_sem with R the set of all names: it is closed under references whatever the rules are *)
Theorem env_ext jm e e' t v : (forall n, lookup_all e n = lookup_all e' n) ->
  (MatchT jm e t v <-> MatchT jm e' t v) /\ (FailT jm e t v <-> FailT jm e' t v).
Proof.
  intros Hl. apply (reach_sem (fun _ => true)); [intros n _; apply Hl| |apply refs_in_all].
  intros n [d|g] _ _; [apply refs_in_all|apply grefs_in_all].
Qed.

Theorem ref_unfold jm e n t v : lookup_all e n = Some (DType t) ->
  (MatchT jm e (TRef n) v <-> MatchT jm e t v) /\ (FailT jm e (TRef n) v <-> FailT jm e t v).
Proof.
  intros L. split; split; intros H.
  - inversion H; subst; try discriminate. congruence.
  - eapply M_ref; eauto.
  - inversion H; subst; try discriminate. congruence.
  - eapply F_ref; eauto.
Qed.

Theorem gref_unfold jm e n g vs r : lookup_all e n = Some (DGroup g) ->
  (SeqOk jm e (GRef n) vs r <-> SeqOk jm e g vs r).
Proof.
  intros L. split; intros H.
  - inversion H; subst. congruence.
  - eapply S_ref; eauto.
Qed.

Lemma lookup_perm (e e' : env) : NoDup (map fst e) -> Permutation e e' -> forall n, lookup e n = lookup e' n.
Proof.
  intros Hnd Hp. induction Hp as [| [m d] l l' Hp IH | [m1 d1] [m2 d2] l | l l' l'' Hp1 IH1 Hp2 IH2]; intros n.
  - reflexivity.
  - cbn. inversion Hnd; subst. rewrite IH; auto.
  - cbn. destruct (N.eqb m2 n) eqn:E2, (N.eqb m1 n) eqn:E1; auto.
    apply N.eqb_eq in E1, E2. subst. inversion Hnd; subst. exfalso. apply H1. left. reflexivity.
  - rewrite IH1; auto. apply IH2. eapply Permutation_NoDup; [|exact Hnd]. apply Permutation_map. auto.
Qed.

Theorem rule_order_irrelevant jm e e' t v : NoDup (map fst e) -> Permutation e e' ->
  (MatchT jm e t v <-> MatchT jm e' t v) /\ (FailT jm e t v <-> FailT jm e' t v).
Proof.
  intros Hnd Hp. apply env_ext, lookup_all_ext, lookup_perm; assumption.
Qed.

