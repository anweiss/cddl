(* C04, whole decider: on a schema in which no float type is reachable, the JSON reading and the
   CBOR reading of the decider are the same function of (fuel, schema, value) - not only at a leaf.
   "No float type reachable" is a boolean, syntactic predicate (nofloat / nofloat_env). *)
From Cddl Require Import Sem.Syntax Sem.Validator Sem.Env.

(* float16/32/64, float, number of the prelude (Syntax.prelude) *)
Definition is_float_name (n : name) : bool := N.leb 1008 n && N.leb n 1012.

Fixpoint nofloat (t : ty) : bool :=
  match t with
  | TFloat => false
  | TRef n => negb (is_float_name n)
  | TTag _ t' => nofloat t'
  | TOr a b => nofloat a && nofloat b
  | TCtl _ t' arg => nofloat t' && nofloat arg
  | TArr g | TMap g => nofloat_g g
  | TAny | TMajor _ | TSimple _ | TLit _ | TRange _ _ _ => true
  end
with nofloat_g (g : grp) : bool :=
  match g with
  | GEmpty => true
  | GSeq a b | GOr a b => nofloat_g a && nofloat_g b
  | GOcc _ _ g' => nofloat_g g'
  | GEnt k _ t => match k with Some k' => nofloat k' | None => true end && nofloat t
  | GRef _ => true
  end.

Definition nofloat_def (d : def) : bool :=
  match d with DType t => nofloat t | DGroup g => nofloat_g g end.

Definition nofloat_env (e : env) : bool := forallb (fun p => nofloat_def (snd p)) e.

Definition entry_nofloat (en : entry) : bool := nofloat (e_key en) && nofloat (e_val en).

Lemma prelude_nofloat n d : lookup prelude n = Some d -> is_float_name n = false -> nofloat_def d = true.
Proof.
  intros L Hn.
  pose proof (lookup_forallb (fun n d => is_float_name n || nofloat_def d) prelude n d) as X.
  cbv beta in X. rewrite Hn in X. apply X; [vm_compute; reflexivity|exact L].
Qed.

Section Agree.
Variable e : env.
Hypothesis He : nofloat_env e = true.

Lemma env_nofloat n d : lookup e n = Some d -> nofloat_def d = true.
Proof. exact (lookup_forallb (fun _ d => nofloat_def d) e n d He). Qed.

Lemma type_rule_nofloat n t : is_float_name n = false -> lookup_all e n = Some (DType t) -> nofloat t = true.
Proof.
  intros Hn L. destruct (lookup_all_inv _ _ _ L) as [L'|L']; [exact (env_nofloat _ _ L')|exact (prelude_nofloat _ _ L' Hn)].
Qed.

Lemma group_rule_nofloat n g : lookup_all e n = Some (DGroup g) -> nofloat_g g = true.
Proof.
  intros L. destruct (lookup_all_inv _ _ _ L) as [L'|L']; [exact (env_nofloat _ _ L')|destruct (prelude_no_group _ _ L')].
Qed.

Definition alts_nofloat (alts : list (list entry)) : Prop :=
  Forall (fun es => Forall (fun en => entry_nofloat en = true) es) alts.

Lemma leaf_agree t v : nofloat t = true -> leaf true t v = leaf false t v.
Proof. destruct t; try reflexivity. discriminate. Qed.

Lemma agree : forall f,
  (forall t v, nofloat t = true -> vt f true e t v = vt f false e t v) /\
  (forall g vs, nofloat_g g = true -> vseq f true e g vs = vseq f false e g vs) /\
  (forall g lo hi c vs, nofloat_g g = true -> vrep f true e g lo hi c vs = vrep f false e g lo hi c vs) /\
  (forall es k v, Forall (fun en => entry_nofloat en = true) es -> vcol f true e es k v = vcol f false e es k v) /\
  (forall es ps, Forall (fun en => entry_nofloat en = true) es -> vcols f true e es ps = vcols f false e es ps) /\
  (forall alts ps, alts_nofloat alts -> valts f true e alts ps = valts f false e alts ps).
Proof.
  apply (same true false e e nofloat nofloat_g); try reflexivity.
  - exact leaf_agree.
  - intros n Hn. split; [reflexivity|]. intros t. exact (type_rule_nofloat n t (proj1 (negb_true_iff _) Hn)).
  - intros n _. split; [reflexivity|]. exact (group_rule_nofloat n).
Qed.

End Agree.

(* a schema whose own rules are float-free and whose root is float-free gets the same answer - including
   "undecided" - from the two readings, at every fuel *)
Theorem agree_float_free e f t v :
  nofloat_env e = true -> nofloat t = true -> vt f true e t v = vt f false e t v.
Proof. intros He Ht. exact (proj1 (agree e He f) t v Ht). Qed.

Theorem verdict_float_free e f v :
  nofloat_env e = true -> verdict f true e v = verdict f false e v.
Proof.
  intros He. unfold verdict. destruct e as [|[n [t|g]] e']; try reflexivity.
  (* the root may bear a prelude float name, so (TRef n) need not be float-free: step to the rule body, which is *)
  destruct f as [|f]; [reflexivity|]. cbn [vt]. rewrite lookup_all_cons, N.eqb_refl.
  assert (Ht : nofloat t = true).
  { cbn [nofloat_env forallb snd nofloat_def] in He. apply andb_true_iff in He. exact (proj1 He). }
  rewrite (agree_float_free _ f t v He Ht). reflexivity.
Qed.
