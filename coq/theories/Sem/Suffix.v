(* An array group only consumes from the front (SeqOk, Sem.v): what it leaves is a suffix of what it got. *)
From Cddl Require Import Sem.Syntax Sem.Sem.

Section Suffix.
Variable jm : bool.
Variable e : env.

Definition suffix (r vs : list value) : Prop := exists p, vs = p ++ r.

Lemma suffix_refl vs : suffix vs vs.
Proof. exists []. reflexivity. Qed.

Lemma suffix_trans a b c : suffix a b -> suffix b c -> suffix a c.
Proof. intros [p ->] [q ->]. exists (q ++ p). rewrite app_assoc. reflexivity. Qed.

Lemma suffix_cons v r : suffix r (v :: r).
Proof. exists [v]. reflexivity. Qed.

Lemma suffix_length r vs : suffix r vs -> (length r <= length vs)%nat.
Proof. intros [p ->]. rewrite app_length. lia. Qed.

(* S_seq and R_step compose two matches; every other rule leaves the sequence as it is, drops its head, or
   passes on what a premise leaves *)
Lemma seqok_suffix : forall g vs r, SeqOk jm e g vs r -> suffix r vs.
Proof.
  apply (SeqOk_mut jm e (fun _ _ => True) (fun _ _ => True) (fun _ vs r => suffix r vs) (fun _ _ => True)
           (fun _ _ _ _ vs r => suffix r vs) (fun _ _ _ _ _ => True) (fun _ _ _ _ => True) (fun _ _ _ => True)
           (fun _ _ => True) (fun _ _ => True));
    eauto using suffix_refl, suffix_trans, suffix_cons.
Qed.

End Suffix.
