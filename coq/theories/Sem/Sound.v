(* The executable decider answers according to the semantics: Some true -> MatchT, Some false -> FailT. *)
From Cddl Require Import Sem.Syntax Sem.Validator Sem.Sem.

Lemma search_spec es : forall cols done,
  search es cols done = true <->
  exists a, pairs_ok es cols a = true /\ counts_ok es 0 (done ++ a) = true.
Proof.
  induction cols as [|col cols IH]; intros done; cbn [search].
  - split.
    + intros H. exists []. rewrite app_nil_r. auto.
    + intros ([|i a] & Ha & Hc); [|discriminate Ha]. rewrite app_nil_r in Hc. exact Hc.
  - rewrite existsb_exists. split.
    + intros (i & Hin & H). apply andb_true_iff in H as [Hp Hs].
      apply IH in Hs as (a & Ha & Hc). exists (i :: a). cbn [pairs_ok]. rewrite Hp, Ha.
      rewrite <- app_assoc in Hc. auto.
    + intros ([|i a] & Ha & Hc); [discriminate Ha|]. cbn [pairs_ok] in Ha.
      apply andb_true_iff in Ha as [Hp Ha]. exists i. split.
      * apply in_seq. unfold pair_ok in Hp. destruct (nth_error col i) eqn:E; [|discriminate].
        assert (i < length col)%nat by (apply nth_error_Some; congruence). lia.
      * rewrite Hp. cbn [andb]. apply IH. exists a. rewrite <- app_assoc. auto.
Qed.

Lemma decide_map_spec es cols : decide_map es cols = true <-> exists a, valid_assign es cols a = true.
Proof.
  unfold decide_map, valid_assign. rewrite search_spec. cbn [app].
  split; intros [a H]; exists a; apply andb_true_iff; exact H.
Qed.

Lemma decide_map_false es cols : decide_map es cols = false <-> forall a, valid_assign es cols a = false.
Proof.
  rewrite <- not_true_iff_false, decide_map_spec. split.
  - intros N a. apply not_true_is_false. intros Ha. apply N. exists a. exact Ha.
  - intros H [a Ha]. rewrite H in Ha. discriminate Ha.
Qed.

Section Sound.
Variable jm : bool.
Variable e : env.

Definition seq_sound (g : grp) (vs : list value) (r : seqres) : Prop :=
  match r with SOk rest => SeqOk jm e g vs rest | SFail => SeqFail jm e g vs | SFuel => True end.
Definition rep_sound (g : grp) (lo : N) (hi : option N) (c : N) (vs : list value) (r : seqres) : Prop :=
  match r with SOk rest => RepOk jm e g lo hi c vs rest | SFail => RepFail jm e g lo hi c vs | SFuel => True end.
Definition ty_sound (t : ty) (v : value) (r : option bool) : Prop :=
  match r with Some true => MatchT jm e t v | Some false => FailT jm e t v | None => True end.
Definition alts_sound (alts : list (list entry)) (ps : list (value * value)) (r : option bool) : Prop :=
  match r with Some true => AltsOk jm e alts ps | Some false => AltsFail jm e alts ps | None => True end.

Lemma leaf_sound t v : ty_sound t v (leaf jm t v).
Proof. destruct (leaf jm t v) as [[|]|] eqn:E; cbn; auto using M_leaf, F_leaf. Qed.

Lemma ctl_simple_sound c t arg v : is_and c = false -> (c = CSize -> str_len v = None) -> MatchT jm e t v ->
  ty_sound (TCtl c t arg) v (ctl_simple c arg v).
Proof. intros Ha Hs Mt. destruct (ctl_simple c arg v) as [[|]|] eqn:E; cbn; auto using M_ctl_simple, F_ctl_simple. Qed.

(* [pf] says that a recursive call is sound: case analysis on the answer of that call, which turns [pf]
   into the judgment the answer stands for *)
Ltac call pf :=
  let H := fresh "H" in pose proof pf as H;
  match type of H with _ ?x => destruct x as [[|]|] || destruct x as [| |?rest] end;
  cbn [ty_sound seq_sound rep_sound alts_sound] in H.

Lemma sound : forall f,
  (forall t v, ty_sound t v (vt f jm e t v)) /\
  (forall g vs, seq_sound g vs (vseq f jm e g vs)) /\
  (forall g lo hi c vs, rep_sound g lo hi c vs (vrep f jm e g lo hi c vs)) /\
  (forall es k v c, vcol f jm e es k v = Some c -> ColR jm e es k v c) /\
  (forall es ps cs, vcols f jm e es ps = Some cs -> ColsR jm e es ps cs) /\
  (forall alts ps, alts_sound alts ps (valts f jm e alts ps)).
Proof.
  induction f as [|f (IHt & IHs & IHr & IHc & IHcs & IHa)].
  { repeat split; intros; cbn; auto; discriminate. }
  repeat split.
  - intros t v. cbn [vt].
    destruct t as [| m | n | | n t' | l | lo hi incl | n | a b | c t' arg | g | g]; try apply leaf_sound.
    + destruct v; try (cbn; apply F_tag_other; discriminate).
      destruct (N.eqb_spec n n0) as [<-|Hn]; [|cbn; apply F_tag_other; congruence].
      call (IHt t' v); cbn; auto using M_tag, F_tag.
    + destruct (lookup_all e n) as [[t'|g']|] eqn:El; try exact I.
      call (IHt t' v); cbn; eauto using M_ref, F_ref.
    + call (IHt a v); call (IHt b v); cbn; auto using M_or1, M_or2, F_or.
    + call (IHt t' v); [|cbn; auto using F_ctl_target|exact I].
      destruct (is_and c) eqn:Ea; [call (IHt arg v); cbn; auto using M_ctl_and, F_ctl_and|].
      destruct c; try discriminate Ea; try (apply ctl_simple_sound; auto; discriminate).
      destruct (str_len v) as [n|] eqn:Es; [|apply ctl_simple_sound; auto].
      call (IHt arg (VInt n)); cbn; eauto using M_ctl_size, F_ctl_size.
    + destruct v; try (cbn; apply F_arr_other; discriminate).
      call (IHs g l); cbn; auto using F_arr_fail. destruct rest; cbn; eauto using M_arr, F_arr_rest.
    + destruct v; try (cbn; apply F_map_other; discriminate).
      destruct (flatten f e g) as [alts|] eqn:Ef; [|exact I].
      call (IHa alts l); cbn; eauto using M_map, F_map.
  - intros g vs. cbn [vseq]. destruct g as [| a b | a b | lo hi g' | k c t | n].
    + cbn. constructor.
    + call (IHs a vs); cbn; auto using SF_seq1. call (IHs b rest); cbn; eauto using S_seq, SF_seq2.
    + call (IHs a vs); cbn; auto using S_or1. call (IHs b vs); cbn; auto using S_or2, SF_or.
    + call (IHr g' lo hi 0%N vs); cbn; auto using S_occ, SF_occ.
    + destruct vs as [|v r]; [cbn; apply SF_ent_nil|]. call (IHt t v); cbn; auto using S_ent, SF_ent.
    + destruct (lookup_all e n) as [[t'|g']|] eqn:El; try exact I.
      call (IHs g' vs); cbn; eauto using S_ref, SF_ref.
  - intros g lo hi c vs. cbn [vrep]. fold (at_max hi c).
    destruct (at_max hi c) eqn:Em; [cbn; apply R_max; exact Em|].
    call (IHs g vs); [exact I|destruct (N.leb lo c) eqn:El; cbn; auto using R_stop, RF_stop|].
    destruct (Nat.eqb_spec (length rest) (length vs)) as [En|En]; [cbn; eauto using R_zero|].
    call (IHr g lo hi (N.succ c) rest); cbn; eauto using R_step, RF_step.
  - intros es k v c H. cbn [vcol] in H. destruct es as [|en es]; [injection H as <-; constructor|].
    call (IHt (e_key en) k); try discriminate; [call (IHt (e_val en) v); try discriminate|];
      (destruct (vcol f jm e es k v) as [c'|] eqn:Ec; [|discriminate]); injection H as <-;
      auto using C_kv, C_kvf, C_kfail.
  - intros es ps cs H. cbn [vcols] in H. destruct ps as [|[k v] ps]; [injection H as <-; constructor|].
    destruct (vcol f jm e es k v) as [c|] eqn:Ec; [|discriminate].
    destruct (vcols f jm e es ps) as [cs'|] eqn:Ecs; [|discriminate]. injection H as <-. constructor; auto.
  - intros alts ps. cbn [valts]. destruct alts as [|es alts]; [cbn; constructor|].
    destruct (vcols f jm e es ps) as [cols|] eqn:Ec; [|call (IHa alts ps); cbn; auto using A_later].
    apply IHcs in Ec. destruct (decide_map es cols) eqn:Ed.
    + cbn. apply decide_map_spec in Ed as (a & Ha). eapply A_here; eassumption.
    + call (IHa alts ps); cbn; auto using A_later. eapply AF_cons; [exact Ec|apply decide_map_false; exact Ed|assumption].
Qed.

Theorem vt_sound f t v b : vt f jm e t v = Some b -> if b then MatchT jm e t v else FailT jm e t v.
Proof.
  intros H. pose proof (proj1 (sound f) t v) as S. rewrite H in S. destruct b; exact S.
Qed.

End Sound.
