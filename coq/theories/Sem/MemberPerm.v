(* C10, schema side: exchanging two neighbouring members of a map group whose key sets are disjoint
   changes neither verdict (member_swap: one exchange, one flat member list). *)
From Cddl Require Import Sem.Syntax Sem.Validator Sem.Sem.

Fixpoint swap2 {A} (n : nat) (l : list A) : list A :=
  match n, l with
  | O, x :: y :: r => y :: x :: r
  | S n', x :: r => x :: swap2 n' r
  | _, _ => l
  end.

Definition ren (n i : nat) : nat := if Nat.eqb i n then S n else if Nat.eqb i (S n) then n else i.

Lemma ren_invol n i : ren n (ren n i) = i.
Proof.
  unfold ren. destruct (Nat.eqb i n) eqn:E1.
  - apply Nat.eqb_eq in E1. subst. rewrite Nat.eqb_refl.
    destruct (Nat.eqb (S n) n) eqn:E; [apply Nat.eqb_eq in E; lia|reflexivity].
  - destruct (Nat.eqb i (S n)) eqn:E2.
    + apply Nat.eqb_eq in E2. subst. rewrite Nat.eqb_refl. reflexivity.
    + rewrite E1, E2. reflexivity.
Qed.

Lemma ren_inj n i j : ren n i = ren n j -> i = j.
Proof. intros H. rewrite <- (ren_invol n i), <- (ren_invol n j), H. reflexivity. Qed.

Lemma swap2_length {A} : forall n (l : list A), length (swap2 n l) = length l.
Proof.
  induction n as [|n IH]; intros l; destruct l as [|x [|y r]]; cbn [swap2 length]; try reflexivity.
  - rewrite IH. reflexivity.
  - rewrite IH. reflexivity.
Qed.

Lemma swap2_invol {A} : forall n (l : list A), swap2 n (swap2 n l) = l.
Proof.
  induction n as [|n IH]; intros l; destruct l as [|x [|y r]]; cbn [swap2]; try reflexivity.
  - rewrite IH. reflexivity.
  - rewrite IH. reflexivity.
Qed.

Lemma nth_swap2 {A} : forall n (l : list A) i, (S n < length l)%nat ->
  nth_error (swap2 n l) i = nth_error l (ren n i).
Proof.
  induction n as [|n IH]; intros l i Hl.
  - destruct l as [|x [|y r]]; cbn [length] in Hl; try lia. cbn [swap2]. unfold ren.
    destruct i as [|[|i]]; reflexivity.
  - destruct l as [|x r]; cbn [length] in Hl; try lia. cbn [swap2].
    destruct i as [|i].
    + unfold ren. cbn [Nat.eqb]. reflexivity.
    + assert (ren (S n) (S i) = S (ren n i)) as ->.
      { unfold ren. cbn [Nat.eqb]. destruct (Nat.eqb i n); [reflexivity|]. destruct (Nat.eqb i (S n)); reflexivity. }
      cbn [nth_error]. apply IH. lia.
Qed.

Definition key_at (col : list cell) (i : nat) : bool :=
  match nth_error col i with Some (kb, _) => kb | None => false end.

Definition disjoint_col (col : list cell) : Prop :=
  forall i j, key_at col i = true -> key_at col j = true -> i = j.

Lemma disjoint_swap n col : (S n < length col)%nat -> disjoint_col col -> disjoint_col (swap2 n col).
Proof.
  intros Hl D i j Hi Hj. unfold key_at in Hi, Hj.
  rewrite (nth_swap2 n col i Hl) in Hi. rewrite (nth_swap2 n col j Hl) in Hj.
  apply (ren_inj n). apply D; assumption.
Qed.

Lemma no_cut_before_free : forall i es col, (i <= length es)%nat -> (i <= length col)%nat ->
  (forall j, (j < i)%nat -> key_at col j = false) -> no_cut_before es col i = true.
Proof.
  induction i as [|i IH]; intros es col He Hc H; [destruct es; reflexivity|].
  destruct es as [|en es]; cbn [length] in He; [lia|].
  destruct col as [|[kb vb] col]; cbn [length] in Hc; [lia|]. cbn [no_cut_before].
  pose proof (H O ltac:(lia)) as H0. unfold key_at in H0. cbn [nth_error] in H0. subst kb.
  rewrite andb_false_r. cbn [negb andb]. apply IH; try lia. intros j Hj. exact (H (S j) ltac:(lia)).
Qed.

Lemma key_at_true col i : key_at col i = true -> (i < length col)%nat.
Proof.
  unfold key_at. intros H. apply nth_error_Some. destruct (nth_error col i); discriminate.
Qed.

(* a column with at most one key-true cell has none before the assigned member, so the cut test holds for
   want of a candidate (no_cut_before_free); this is where disjointness is used *)
Lemma pair_ok_disjoint es col i : length col = length es -> disjoint_col col ->
  pair_ok es col i = match nth_error col i with Some (kb, vb) => kb && vb | None => false end.
Proof.
  intros Hl D. unfold pair_ok. destruct (nth_error col i) as [[[|] [|]]|] eqn:E; try reflexivity.
  assert (K : key_at col i = true) by (unfold key_at; rewrite E; reflexivity).
  pose proof (key_at_true _ _ K) as Hi. apply no_cut_before_free; try lia.
  intros j Hj. destruct (key_at col j) eqn:Kj; [|reflexivity]. pose proof (D _ _ Kj K). lia.
Qed.

Lemma pair_ok_swap n es col i : length col = length es -> (S n < length es)%nat -> disjoint_col col ->
  pair_ok (swap2 n es) (swap2 n col) (ren n i) = pair_ok es col i.
Proof.
  intros Hl Hn D. rewrite (pair_ok_disjoint es col i Hl D), pair_ok_disjoint, nth_swap2, ren_invol; try lia.
  - reflexivity.
  - rewrite !swap2_length. exact Hl.
  - apply disjoint_swap; [lia|exact D].
Qed.

Lemma counts_ok_spec : forall es k a,
  counts_ok es k a = true <-> (forall i en, nth_error es i = Some en -> bound_ok en (count_idx (k + i) a) = true).
Proof.
  induction es as [|e0 es IH]; intros k a; cbn [counts_ok].
  - split; [intros _ i en H; destruct i; discriminate|reflexivity].
  - rewrite andb_true_iff, IH. split.
    + intros [H0 H] [|i] en Hi; [injection Hi as <-; rewrite Nat.add_0_r; exact H0|].
      rewrite <- Nat.add_succ_comm. exact (H i en Hi).
    + intros H. split; [rewrite <- (Nat.add_0_r k); exact (H O e0 eq_refl)|].
      intros i en Hi. rewrite Nat.add_succ_comm. exact (H (S i) en Hi).
Qed.

Lemma count_idx_ren n i a : count_idx i (map (ren n) a) = count_idx (ren n i) a.
Proof.
  unfold count_idx. rewrite (count_occ_map (ren n) Nat.eq_dec Nat.eq_dec (ren_inj n) (ren n i) a), ren_invol. reflexivity.
Qed.

Lemma counts_ok_swap n es a : (S n < length es)%nat -> counts_ok (swap2 n es) 0 (map (ren n) a) = counts_ok es 0 a.
Proof.
  intros Hn. apply eq_true_iff_eq. rewrite !counts_ok_spec. cbn [Nat.add]. split; intros H i en Hi.
  - specialize (H (ren n i) en). rewrite (nth_swap2 n es _ Hn), count_idx_ren, ren_invol in H. exact (H Hi).
  - rewrite count_idx_ren. rewrite (nth_swap2 n es i Hn) in Hi. exact (H _ en Hi).
Qed.

Definition good_cols (es : list entry) (cols : list (list cell)) : Prop :=
  Forall (fun col => length col = length es /\ disjoint_col col) cols.

Lemma valid_swap n es cols a : (S n < length es)%nat -> good_cols es cols ->
  valid_assign (swap2 n es) (map (swap2 n) cols) (map (ren n) a) = valid_assign es cols a.
Proof.
  intros Hn G. unfold valid_assign. rewrite (counts_ok_swap n es a Hn). f_equal.
  revert a. induction G as [|col cols [Hl D] G IH]; intros [|i a]; cbn [pairs_ok map]; try reflexivity.
  rewrite (pair_ok_swap n es col i Hl Hn D), IH. reflexivity.
Qed.

Lemma map_ren_invol n a : map (ren n) (map (ren n) a) = a.
Proof. rewrite map_map. rewrite <- (map_id a) at 2. apply map_ext. intros i. apply ren_invol. Qed.

Theorem assignment_exists_swap n es cols : (S n < length es)%nat -> good_cols es cols ->
  ((exists a, valid_assign es cols a = true) <-> (exists a, valid_assign (swap2 n es) (map (swap2 n) cols) a = true)).
Proof.
  intros Hn G. split; intros [a H]; exists (map (ren n) a).
  - rewrite valid_swap; assumption.
  - rewrite <- (map_ren_invol n a), valid_swap in H; assumption.
Qed.

Section Spec.
Variable jm : bool.
Variable e : env.

Lemma colr_length es k v c : ColR jm e es k v c -> length c = length es.
Proof. induction 1; cbn [length]; congruence. Qed.

Lemma colr_swap : forall n es k v c, ColR jm e es k v c -> ColR jm e (swap2 n es) k v (swap2 n c).
Proof.
  induction n as [|n IH]; intros es k v c H.
  - destruct H as [k v | en es k v c Hk H | en es k v c Hk Hv H | en es k v c Hk Hv H]; cbn [swap2]; try constructor; try assumption.
    all: destruct H as [k v | en2 es2 k v c2 Hk2 H2 | en2 es2 k v c2 Hk2 Hv2 H2 | en2 es2 k v c2 Hk2 Hv2 H2]; cbn [swap2]; repeat (constructor; try assumption).
  - destruct H as [k v | en es k v c Hk H | en es k v c Hk Hv H | en es k v c Hk Hv H]; cbn [swap2]; constructor; try assumption; apply IH; assumption.
Qed.

Lemma colsr_swap n es ps cols : ColsR jm e es ps cols -> ColsR jm e (swap2 n es) ps (map (swap2 n) cols).
Proof. induction 1; cbn [map]; constructor; [apply colr_swap; assumption|assumption]. Qed.

Definition keys_disjoint (es : list entry) : Prop :=
  forall k i j en1 en2, nth_error es i = Some en1 -> nth_error es j = Some en2 ->
    MatchT jm e (e_key en1) k -> MatchT jm e (e_key en2) k -> i = j.

Lemma colr_key_match : forall es k v c, ColR jm e es k v c ->
  forall i, key_at c i = true -> exists en, nth_error es i = Some en /\ MatchT jm e (e_key en) k.
Proof.
  induction 1 as [k v | en es k v c Hk H IH | en es k v c Hk Hv H IH | en es k v c Hk Hv H IH]; intros [|i] Hi;
    try discriminate Hi; try exact (IH i Hi); exact (ex_intro _ en (conj eq_refl Hk)).
Qed.

Lemma colr_disjoint es k v c : keys_disjoint es -> ColR jm e es k v c -> disjoint_col c.
Proof.
  intros D H i j Hi Hj.
  destruct (colr_key_match _ _ _ _ H i Hi) as (en1 & E1 & M1). destruct (colr_key_match _ _ _ _ H j Hj) as (en2 & E2 & M2).
  exact (D k i j en1 en2 E1 E2 M1 M2).
Qed.

Lemma colsr_good es ps cols : keys_disjoint es -> ColsR jm e es ps cols -> good_cols es cols.
Proof.
  intros D. induction 1 as [es|es k v ps c cs Hc Hcs IH]; [constructor|].
  constructor; [split; [exact (colr_length _ _ _ _ Hc)|exact (colr_disjoint _ _ _ _ D Hc)]|exact (IH D)].
Qed.

Lemma keys_disjoint_swap n es : (S n < length es)%nat -> keys_disjoint es -> keys_disjoint (swap2 n es).
Proof.
  intros Hn D k i j en1 en2 E1 E2 M1 M2. rewrite (nth_swap2 n es i Hn) in E1. rewrite (nth_swap2 n es j Hn) in E2.
  apply (ren_inj n). exact (D k _ _ en1 en2 E1 E2 M1 M2).
Qed.

Lemma member_swap_fwd n es ps : (S n < length es)%nat -> keys_disjoint es ->
  (AltsOk jm e [es] ps -> AltsOk jm e [swap2 n es] ps) /\ (AltsFail jm e [es] ps -> AltsFail jm e [swap2 n es] ps).
Proof.
  intros Hn D. split; intros H.
  - inversion H as [? ? ? cols a Hcols Hv|? ? ? H']; subst; [|inversion H'].
    apply (A_here _ _ _ _ _ _ (map (ren n) a) (colsr_swap n _ _ _ Hcols)).
    rewrite valid_swap; [exact Hv|exact Hn|exact (colsr_good _ _ _ D Hcols)].
  - inversion H as [|? ? ? cols Hcols Hall Hrest]; subst.
    apply (AF_cons _ _ _ _ _ _ (colsr_swap n _ _ _ Hcols)); [|constructor].
    intros a. rewrite <- (map_ren_invol n a), valid_swap; [apply Hall|exact Hn|exact (colsr_good _ _ _ D Hcols)].
Qed.

(* both directions, both verdicts: swapping is an involution *)
Theorem member_swap n es ps : (S n < length es)%nat -> keys_disjoint es ->
  (AltsOk jm e [es] ps <-> AltsOk jm e [swap2 n es] ps) /\ (AltsFail jm e [es] ps <-> AltsFail jm e [swap2 n es] ps).
Proof.
  intros Hn D. destruct (member_swap_fwd n es ps Hn D) as [A B].
  assert (Hn' : (S n < length (swap2 n es))%nat) by (rewrite swap2_length; exact Hn).
  destruct (member_swap_fwd n _ ps Hn' (keys_disjoint_swap n es Hn D)) as [A' B'].
  rewrite swap2_invol in A', B'. split; split; assumption.
Qed.

End Spec.
