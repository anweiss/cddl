(* C09: defining identities of the type operators, over the specification Sem.v. *)
From Cddl Require Import Sem.Syntax Sem.Validator Sem.Sem.

Section Id.
Variable jm : bool.
Variable e : env.

Lemma leaf_none_or a b v x : leaf jm (TOr a b) v = Some x -> False.
Proof. discriminate. Qed.

Theorem choice_or a b v : MatchT jm e (TOr a b) v <-> MatchT jm e a v \/ MatchT jm e b v.
Proof.
  split.
  - intros H. inversion H; subst; auto. discriminate.
  - intros [H|H]; [apply M_or1|apply M_or2]; auto.
Qed.

Theorem choice_fail a b v : FailT jm e (TOr a b) v <-> FailT jm e a v /\ FailT jm e b v.
Proof.
  split.
  - intros H. inversion H; subst; auto. discriminate.
  - intros [Ha Hb]. apply F_or; auto.
Qed.

Theorem choice_comm a b v : MatchT jm e (TOr a b) v <-> MatchT jm e (TOr b a) v.
Proof. rewrite !choice_or. tauto. Qed.

Theorem and_conj c a b v : is_and c = true -> (MatchT jm e (TCtl c a b) v <-> MatchT jm e a v /\ MatchT jm e b v).
Proof.
  intros Hc. split.
  - intros H. inversion H; subst; auto; try discriminate; try congruence.
  - intros [Ha Hb]. apply M_ctl_and; auto.
Qed.

Lemma ctl_simple_iff c t arg v : is_and c = false -> (c = CSize -> str_len v = None) ->
  (MatchT jm e (TCtl c t arg) v <-> MatchT jm e t v /\ ctl_simple c arg v = Some true).
Proof.
  intros Ha Hs. split.
  - intros H. inversion H; subst; auto; try discriminate; try congruence. rewrite (Hs eq_refl) in *. discriminate.
  - intros [Ht Hc]. apply M_ctl_simple; assumption.
Qed.

Theorem ne_is_complement_in_T t l v :
  MatchT jm e (TCtl CNe t (TLit l)) v <-> MatchT jm e t v /\ ~ MatchT jm e (TCtl CEq t (TLit l)) v.
Proof.
  rewrite !ctl_simple_iff by (reflexivity || discriminate). cbn [ctl_simple].
  destruct (lit_matches l v); cbn [negb]; intuition congruence.
Qed.

Lemma range_iff lo hi incl v : MatchT jm e (TRange lo hi incl) v <-> in_range lo hi incl v = true.
Proof.
  split.
  - intros H. inversion H; subst. cbn in H0. congruence.
  - intros H. apply M_leaf. cbn. rewrite H. reflexivity.
Qed.

Theorem range_excl_vs_incl lo hi v :
  MatchT jm e (TRange lo hi false) v <-> MatchT jm e (TRange lo hi true) v /\ v <> VInt hi.
Proof.
  rewrite !range_iff. destruct v; cbn; try (split; [discriminate|intros [? ?]; discriminate]).
  split.
  - intros H. split; [lia|]. intros X. inversion X. lia.
  - intros [H Hn]. assert (z <> hi) by (intros ->; apply Hn; reflexivity). lia.
Qed.

Theorem prelude_unfold n t v :
  lookup e n = None -> lookup prelude n = Some (DType t) -> (MatchT jm e (TRef n) v <-> MatchT jm e t v).
Proof.
  intros Hu Hp. assert (L : lookup_all e n = Some (DType t)) by (unfold lookup_all; rewrite Hu; exact Hp).
  split.
  - intros H. inversion H; subst; try discriminate. congruence.
  - intros H. eapply M_ref; eauto.
Qed.

End Id.

Lemma prelude_table :
  map fst prelude = [1000;1001;1002;1003;1004;1005;1006;1007;1008;1009;1010;1011;1012;1013;1014;1015;1016;1017;1018]%N
  /\ lookup prelude 1003%N = Some (DType (TOr (TRef 1001%N) (TRef 1002%N)))      (* int = uint / nint *)
  /\ lookup prelude 1012%N = Some (DType (TOr (TRef 1003%N) (TRef 1011%N)))      (* number = int / float *)
  /\ lookup prelude 1015%N = Some (DType (TOr (TRef 1013%N) (TRef 1014%N)))      (* bool = false / true *)
  /\ lookup prelude 1007%N = Some (DType (TRef 1006%N))                        (* text = tstr *)
  /\ lookup prelude 1005%N = Some (DType (TRef 1004%N))                        (* bytes = bstr *)
  /\ lookup prelude 1017%N = Some (DType (TRef 1016%N))                        (* null = nil *)
  /\ lookup prelude 1001%N = Some (DType (TMajor 0%N))                         (* uint = #0 *)
  /\ lookup prelude 1002%N = Some (DType (TMajor 1%N)).                        (* nint = #1 *)
Proof. repeat split. Qed.
