(* C08, "at any position": replacing a sub-expression by an equivalent one - in particular by a
   reference to a rule defined as that expression, or a generic parameter by its argument - anywhere
   inside a type (under tags, choices, control targets, .and/.within operands, array groups at any
   nesting, map member keys and values) preserves both verdicts.  Congruence of the specification. *)
From Cddl Require Import Base.Lists Sem.Syntax Sem.Validator Sem.Sem Sem.Sound.

(* the map-group checks look at occurrence bounds and cuts only *)
Definition shape (en : entry) : N * option N * bool := (e_lo en, e_hi en, e_cut en).

Lemma no_cut_before_shape : forall i es es' col, map shape es = map shape es' ->
  no_cut_before es col i = no_cut_before es' col i.
Proof.
  induction i as [|i IH]; intros es es' col H; [destruct es, es'; reflexivity|].
  destruct es as [|en es], es' as [|en' es']; try discriminate; [reflexivity|].
  destruct col as [|[kb vb] col]; [reflexivity|]. injection H as _ _ Hc Ht.
  cbn [no_cut_before]. rewrite (IH es es' col Ht), Hc. reflexivity.
Qed.

Lemma pair_ok_shape es es' col i : map shape es = map shape es' -> pair_ok es col i = pair_ok es' col i.
Proof. intros H. unfold pair_ok. destruct (nth_error col i) as [[[|] [|]]|]; try reflexivity. apply no_cut_before_shape. exact H. Qed.

Lemma pairs_ok_shape es es' : map shape es = map shape es' -> forall cols a, pairs_ok es cols a = pairs_ok es' cols a.
Proof.
  intros H. induction cols as [|col cols IH]; intros a; destruct a as [|i a]; try reflexivity.
  cbn [pairs_ok]. rewrite (pair_ok_shape es es' col i H), IH. reflexivity.
Qed.

Lemma counts_ok_shape : forall es es' i a, map shape es = map shape es' -> counts_ok es i a = counts_ok es' i a.
Proof.
  induction es as [|en es IH]; intros es' i a H; destruct es' as [|en' es']; try discriminate; [reflexivity|].
  injection H as Hlo Hhi _ Ht.
  cbn [counts_ok]. rewrite (IH es' (S i) a Ht). unfold bound_ok. rewrite Hlo, Hhi. reflexivity.
Qed.

Lemma valid_assign_shape es es' cols a : map shape es = map shape es' -> valid_assign es cols a = valid_assign es' cols a.
Proof. intros H. unfold valid_assign. rewrite (pairs_ok_shape es es' H), (counts_ok_shape es es' 0 a H). reflexivity. Qed.

Lemma decide_map_shape es es' cols : map shape es = map shape es' -> decide_map es cols = decide_map es' cols.
Proof.
  intros H. apply eq_true_iff_eq. rewrite !decide_map_spec.
  split; intros [a Ha]; exists a; rewrite (valid_assign_shape es es' cols a H) in *; exact Ha.
Qed.

Section Congr.
Variable jm : bool.
Variable e : env.

Definition Eqv (p q : ty) : Prop :=
  forall v, (MatchT jm e p v <-> MatchT jm e q v) /\ (FailT jm e p v <-> FailT jm e q v).

Section Fwd.
Variable B : ty -> ty -> Prop.                    (* the replaced pairs *)
Hypothesis Bsound : forall p q, B p q -> Eqv p q.

Inductive Cg : ty -> ty -> Prop :=
| Cg_base p q : B p q -> Cg p q
| Cg_refl t : Cg t t
| Cg_tag n a a' : Cg a a' -> Cg (TTag n a) (TTag n a')
| Cg_or a a' b b' : Cg a a' -> Cg b b' -> Cg (TOr a b) (TOr a' b')
| Cg_ctl_target c a a' b : Cg a a' -> Cg (TCtl c a b) (TCtl c a' b)
| Cg_ctl_and c a a' b b' : is_and c = true -> Cg a a' -> Cg b b' -> Cg (TCtl c a b) (TCtl c a' b')
| Cg_arr g g' : CgG g g' -> Cg (TArr g) (TArr g')
| Cg_map g g' : CgG g g' -> Cg (TMap g) (TMap g')
with CgG : grp -> grp -> Prop :=
| CgG_refl g : CgG g g
| CgG_seq a a' b b' : CgG a a' -> CgG b b' -> CgG (GSeq a b) (GSeq a' b')
| CgG_or a a' b b' : CgG a a' -> CgG b b' -> CgG (GOr a b) (GOr a' b')
| CgG_occ lo hi g g' : CgG g g' -> CgG (GOcc lo hi g) (GOcc lo hi g')
| CgG_ent_k k k' c t t' : Cg k k' -> Cg t t' -> CgG (GEnt (Some k) c t) (GEnt (Some k') c t')
| CgG_ent_n k c t t' : Cg t t' -> CgG (GEnt k c t) (GEnt k c t').

Definition CgEn (en en' : entry) : Prop :=
  shape en = shape en' /\ Cg (e_key en) (e_key en') /\ Cg (e_val en) (e_val en').
Definition CgE := Forall2 CgEn.
Definition CgA := Forall2 CgE.

Lemma CgEn_refl en : CgEn en en.
Proof. repeat split; apply Cg_refl. Qed.
Lemma CgA_refl alts : CgA alts alts.
Proof. exact (Forall2_diag _ (Forall2_diag _ CgEn_refl) alts). Qed.

Lemma CgE_shape es es' : CgE es es' -> map shape es = map shape es'.
Proof. induction 1 as [|en en' es es' [H _] _ IH]; [reflexivity|]. cbn [map]. rewrite H, IH. reflexivity. Qed.

Lemma prod_alts_cg : forall a a' b b', CgA a a' -> CgA b b' -> CgA (prod_alts a b) (prod_alts a' b').
Proof.
  unfold prod_alts. induction 1 as [|x x' a a' Hx Ha IH]; intros Hb; [constructor|].
  cbn [flat_map]. apply Forall2_app; [|exact (IH Hb)].
  clear IH Ha. induction Hb as [|y y' b b' Hy Hb IHb]; [constructor|].
  cbn [map]. constructor; [apply Forall2_app; assumption|exact IHb].
Qed.

Lemma single_cg lo hi c k k' t t' : Cg k k' -> Cg t t' ->
  CgA [[ {| e_lo := lo; e_hi := hi; e_key := k; e_cut := c; e_val := t |} ]]
      [[ {| e_lo := lo; e_hi := hi; e_key := k'; e_cut := c; e_val := t' |} ]].
Proof. intros Hk Ht. constructor; [|constructor]. constructor; [|constructor]. split; [reflexivity|split; assumption]. Qed.

Lemma flatten_cg : forall f g g' alts, CgG g g' -> flatten f e g = Some alts ->
  exists alts', flatten f e g' = Some alts' /\ CgA alts alts'.
Proof.
  induction f as [|f IH]; intros g g' alts Hc H; [discriminate|].
  destruct Hc as [g | a a' b b' Ha Hb | a a' b b' Ha Hb | lo hi g0 g0' Hg | k k' c t t' Hk Ht | k c t t' Ht];
    cbn [flatten] in H |- *.
  - exists alts. split; [exact H|apply CgA_refl].
  - destruct (flatten f e a) as [x|] eqn:E1, (flatten f e b) as [y|] eqn:E2; try discriminate. injection H as <-.
    destruct (IH _ _ _ Ha E1) as (x' & -> & Hx), (IH _ _ _ Hb E2) as (y' & -> & Hy).
    eexists; split; [reflexivity|apply prod_alts_cg; assumption].
  - destruct (flatten f e a) as [x|] eqn:E1, (flatten f e b) as [y|] eqn:E2; try discriminate. injection H as <-.
    destruct (IH _ _ _ Ha E1) as (x' & -> & Hx), (IH _ _ _ Hb E2) as (y' & -> & Hy).
    eexists; split; [reflexivity|apply Forall2_app; assumption].
  - destruct g0 as [| | | | [k|] c t |]; try discriminate. injection H as <-.
    inversion Hg; subst; (eexists; split; [reflexivity|]);
      [apply CgA_refl|apply single_cg; assumption|apply single_cg; [apply Cg_refl|assumption]].
  - injection H as <-. eexists; split; [reflexivity|]. apply single_cg; assumption.
  - destruct k as [k|]; [|discriminate]. injection H as <-. eexists; split; [reflexivity|].
    apply single_cg; [apply Cg_refl|assumption].
Qed.

(* One rule of the semantics against one step of the congruence: invert the step; where the replacement is
   at the root of the type, or there is none, rebuild the judgment from the premises of the rule and cross
   the replaced pair.  What is left is a replacement below the root. *)
Ltac below_root :=
  match goal with Hc : Cg _ _ |- _ => inversion Hc | Hc : CgG _ _ |- _ => inversion Hc end; subst;
  try (try match goal with
           | HB : B _ _ |- MatchT _ _ _ _ => apply (proj1 (proj1 (Bsound _ _ HB _)))
           | HB : B _ _ |- FailT _ _ _ _ => apply (proj1 (proj2 (Bsound _ _ HB _)))
           end;
       econstructor; eassumption).

Lemma cg_fwd :
  (forall t v, MatchT jm e t v -> forall t', Cg t t' -> MatchT jm e t' v) /\
  (forall t v, FailT jm e t v -> forall t', Cg t t' -> FailT jm e t' v) /\
  (forall g vs r, SeqOk jm e g vs r -> forall g', CgG g g' -> SeqOk jm e g' vs r) /\
  (forall g vs, SeqFail jm e g vs -> forall g', CgG g g' -> SeqFail jm e g' vs) /\
  (forall g lo hi c vs r, RepOk jm e g lo hi c vs r -> forall g', CgG g g' -> RepOk jm e g' lo hi c vs r) /\
  (forall g lo hi c vs, RepFail jm e g lo hi c vs -> forall g', CgG g g' -> RepFail jm e g' lo hi c vs) /\
  (forall es k v c, ColR jm e es k v c -> forall es', CgE es es' -> ColR jm e es' k v c) /\
  (forall es ps cs, ColsR jm e es ps cs -> forall es', CgE es es' -> ColsR jm e es' ps cs) /\
  (forall alts ps, AltsOk jm e alts ps -> forall alts', CgA alts alts' -> AltsOk jm e alts' ps) /\
  (forall alts ps, AltsFail jm e alts ps -> forall alts', CgA alts alts' -> AltsFail jm e alts' ps).
Proof.
  apply sem_mutind.
  - intros. below_root; discriminate.
  - intros. below_root. apply M_tag; auto.
  - intros. below_root.
  - intros. below_root. apply M_or1; auto.
  - intros. below_root. apply M_or2; auto.
  - intros. below_root; apply M_ctl_and; auto.
  - intros. below_root; [eapply M_ctl_size; eauto|discriminate].
  - intros. below_root; [apply M_ctl_simple; auto|congruence].
  - intros. below_root. apply M_arr; auto.
  - intros g ps f alts Hf H IH t' Hc. below_root. edestruct flatten_cg as (alts' & Hf' & Ha); [eassumption|exact Hf|].
    exact (M_map _ _ _ _ _ _ Hf' (IH _ Ha)).
  - intros. below_root; discriminate.
  - intros. below_root.
  - intros. below_root. apply F_tag; auto.
  - intros. below_root.
  - intros. below_root. apply F_or; auto.
  - intros. below_root; apply F_ctl_target; auto.
  - intros. below_root; apply F_ctl_and; auto.
  - intros. below_root; [eapply F_ctl_size; eauto|discriminate].
  - intros. below_root; [apply F_ctl_simple; auto|congruence].
  - intros. below_root.
  - intros. below_root. apply F_arr_fail; auto.
  - intros. below_root. eapply F_arr_rest; eauto.
  - intros. below_root.
  - intros g ps f alts Hf H IH t' Hc. below_root. edestruct flatten_cg as (alts' & Hf' & Ha); [eassumption|exact Hf|].
    exact (F_map _ _ _ _ _ _ Hf' (IH _ Ha)).
  - intros. below_root.
  - intros. below_root. eapply S_seq; eauto.
  - intros. below_root. apply S_or1; auto.
  - intros. below_root. apply S_or2; auto.
  - intros. below_root. apply S_occ; auto.
  - intros. below_root; apply S_ent; auto.
  - intros. below_root.
  - intros. below_root. apply SF_seq1; auto.
  - intros. below_root. eapply SF_seq2; eauto.
  - intros. below_root. apply SF_or; auto.
  - intros. below_root. apply SF_occ; auto.
  - intros. below_root.
  - intros. below_root; apply SF_ent; auto.
  - intros. below_root.
  (* RepOk, RepFail: the rules do not take the group apart *)
  - intros. apply R_max. assumption.
  - intros. apply R_stop; auto.
  - intros. eapply R_zero; eauto.
  - intros. eapply R_step; eauto.
  - intros. apply RF_stop; auto.
  - intros. eapply RF_step; eauto.
  - intros k v es' Hc. inversion Hc; subst. apply C_nil.
  - intros en es k v c H IH H2 IH2 es' Hc. inversion Hc as [|? en' ? es'' [Hs [Hk Hv]] Hes]; subst. apply C_kfail; auto.
  - intros en es k v c H IH H1 IH1 H2 IH2 es' Hc. inversion Hc as [|? en' ? es'' [Hs [Hk Hv]] Hes]; subst. apply C_kv; auto.
  - intros en es k v c H IH H1 IH1 H2 IH2 es' Hc. inversion Hc as [|? en' ? es'' [Hs [Hk Hv]] Hes]; subst. apply C_kvf; auto.
  - intros. apply CS_nil.
  - intros. apply CS_cons; auto.
  (* AltsOk, AltsFail: the checks on an assignment see the shape of the members only *)
  - intros es alts ps cols a H IH Hv alts' Hc. inversion Hc as [|? es' ? alts'' Hes Hal]; subst.
    eapply A_here; [exact (IH _ Hes)|]. rewrite <- (valid_assign_shape es es' cols a (CgE_shape _ _ Hes)). exact Hv.
  - intros es alts ps H IH alts' Hc. inversion Hc as [|? es' ? alts'' Hes Hal]; subst. apply A_later. auto.
  - intros ps alts' Hc. inversion Hc; subst. apply AF_nil.
  - intros es alts ps cols H IH Hv H2 IH2 alts' Hc. inversion Hc as [|? es' ? alts'' Hes Hal]; subst.
    eapply AF_cons; [exact (IH _ Hes)| |exact (IH2 _ Hal)].
    intros a. rewrite <- (valid_assign_shape es es' cols a (CgE_shape _ _ Hes)). apply Hv.
Qed.

End Fwd.
End Congr.

Scheme Cg_mut := Minimality for Cg Sort Prop
with CgG_mut := Minimality for CgG Sort Prop.
Combined Scheme Cg_mutind from Cg_mut, CgG_mut.

Lemma Cg_sym (B : ty -> ty -> Prop) :
  (forall t t', Cg B t t' -> Cg (fun p q => B q p) t' t) /\
  (forall g g', CgG B g g' -> CgG (fun p q => B q p) g' g).
Proof.
  apply Cg_mutind; intros;
    [apply Cg_base|apply Cg_refl|apply Cg_tag|apply Cg_or|apply Cg_ctl_target|apply Cg_ctl_and|apply Cg_arr|apply Cg_map
    |apply CgG_refl|apply CgG_seq|apply CgG_or|apply CgG_occ|apply CgG_ent_k|apply CgG_ent_n]; assumption.
Qed.

(* equivalent sub-expressions may be exchanged anywhere except inside the argument of a control other than
   .and / .within: Cg has no rule for it (the fragment reads the argument of a comparison / .eq / .ne /
   .size-on-integers control syntactically) *)
Theorem congruence jm e (B : ty -> ty -> Prop) t t' :
  (forall p q, B p q -> Eqv jm e p q) -> Cg B t t' -> Eqv jm e t t'.
Proof.
  intros Bs Hc v.
  assert (Bs' : forall p q, B q p -> Eqv jm e p q).
  { intros p q H v0. destruct (Bs q p H v0) as [M F]. split; symmetry; assumption. }
  pose proof (proj1 (Cg_sym B) _ _ Hc) as Hc'.
  pose proof (cg_fwd jm e B Bs) as (F1 & F2 & _). pose proof (cg_fwd jm e _ Bs') as (G1 & G2 & _).
  split; split; intros H.
  - exact (F1 _ _ H _ Hc).
  - exact (G1 _ _ H _ Hc').
  - exact (F2 _ _ H _ Hc).
  - exact (G2 _ _ H _ Hc').
Qed.
