(* The RFC semantics assigns a verdict - and therefore (Complete.v) the decider answers - for EVERY value on
   every well-founded schema of the fragment.  "Well-founded" is syntactic and checkable: a rank on rule
   names such that a reference that is not under an array, a map or a tag goes to a rule of smaller rank
   (so `a = [* a] / int` is fine, `a = a / int` and `a = b, b = a` are not), map groups are flat member
   lists, and control operators are applied to targets on which RFC 8610 defines them (.size on strings
   and unsigned integers, comparisons on numbers, .eq/.ne against a literal, .and/.within anywhere).
   No fuel bound is assumed: the proof is about the judgments of Sem.v, the fuel comes from completeness. *)
From Cddl Require Import Sem.Syntax Sem.SyntaxInd Sem.Validator Sem.Sem Sem.Sound Sem.Mono Sem.Complete Sem.Suffix Sem.Env.

Fixpoint vsize (v : value) : nat :=
  match v with
  | VArr l => S (list_sum (map vsize l))
  | VMap l => S (list_sum (map (fun p => vsize (fst p) + vsize (snd p))%nat l))
  | VTag _ v' => S (vsize v')
  | VText _ | VBytes _ => 2
  | _ => 1
  end.

Definition lsize (l : list value) : nat := list_sum (map vsize l).
Definition msize (l : list (value * value)) : nat := list_sum (map (fun p => vsize (fst p) + vsize (snd p))%nat l).

Lemma vsize_arr l : vsize (VArr l) = S (lsize l).
Proof. reflexivity. Qed.

Lemma vsize_map l : vsize (VMap l) = S (msize l).
Proof. reflexivity. Qed.

Lemma lsize_app p r : lsize (p ++ r) = (lsize p + lsize r)%nat.
Proof. unfold lsize. rewrite map_app. apply list_sum_app. Qed.

Lemma lsize_suffix r vs : suffix r vs -> (lsize r <= lsize vs)%nat.
Proof. intros [p ->]. rewrite lsize_app. lia. Qed.

Definition str_name (n : name) : bool := N.leb 1004 n && N.leb n 1007.
Definition num_name (n : name) : bool := (N.leb 1001 n && N.leb n 1003) || (N.leb 1008 n && N.leb n 1012).
Definition uint_name (n : name) : bool := N.eqb n 1001.

Fixpoint str_ty (t : ty) : bool :=
  match t with
  | TMajor m => N.eqb m 2 || N.eqb m 3
  | TLit (LText _) | TLit (LBytes _) => true
  | TRef n => str_name n
  | TOr a b => str_ty a && str_ty b
  | TCtl _ t' _ => str_ty t'
  | _ => false
  end.

Fixpoint num_ty (t : ty) : bool :=
  match t with
  | TMajor m => N.eqb m 0 || N.eqb m 1
  | TFloat | TRange _ _ _ | TLit (LInt _) | TLit (LFloat _) => true
  | TRef n => num_name n
  | TOr a b => num_ty a && num_ty b
  | TCtl _ t' _ => num_ty t'
  | _ => false
  end.

Fixpoint uint_ty (t : ty) : bool :=
  match t with
  | TMajor m => N.eqb m 0
  | TLit (LInt z) => 0 <=? z
  | TRange lo _ _ => 0 <=? lo
  | TRef n => uint_name n
  | TOr a b => uint_ty a && uint_ty b
  | TCtl _ t' _ => uint_ty t'
  | _ => false
  end.

Definition lit_arg (arg : ty) : bool := match arg with TLit _ => true | _ => false end.
Definition num_lit_arg (arg : ty) : bool :=
  match arg with TLit l => match lit4 l with Some _ => true | None => false end | _ => false end.
Definition size_lit_arg (arg : ty) : bool := match arg with TLit (LInt n) => 0 <=? n | _ => false end.

Section Total.
Variable jm : bool.
Variable e : env.
Variable rho : name -> nat.      (* rank of a rule name *)
Variable B : nat.                (* strictly above every rank *)
Variable mg : name -> bool.      (* the group rules that are used as map groups *)

Definition is_type (n : name) : bool := match lookup_all e n with Some (DType _) => true | _ => false end.
Definition is_group (n : name) : bool := match lookup_all e n with Some (DGroup _) => true | _ => false end.

Fixpoint wf_ty (b : nat) (t : ty) : bool :=
  match t with
  | TAny | TMajor _ | TSimple _ | TFloat | TLit _ | TRange _ _ _ => true
  | TTag _ t' => wf_ty B t'
  | TRef n => is_type n && Nat.ltb (rho n) b
  | TOr a c => wf_ty b a && wf_ty b c
  | TCtl c t' arg =>
    wf_ty b t' &&
    match c with
    | CAnd | CWithin => wf_ty b arg
    | CEq | CNe => lit_arg arg
    | CLt | CLe | CGt | CGe => num_ty t' && num_lit_arg arg
    | CSize => (str_ty t' && wf_ty B arg) || (uint_ty t' && size_lit_arg arg)
    end
  | TArr g => wf_seq B g
  | TMap g => wf_map B g
  end
with wf_seq (b : nat) (g : grp) : bool :=
  match g with
  | GEmpty => true
  | GSeq x y | GOr x y => wf_seq b x && wf_seq b y
  | GOcc _ _ g' => wf_seq b g'
  | GEnt _ _ t => wf_ty b t
  | GRef n => is_group n && Nat.ltb (rho n) b
  end
with wf_map (b : nat) (g : grp) : bool :=
  match g with
  | GEmpty => true
  | GSeq x y | GOr x y => wf_map b x && wf_map b y
  | GOcc _ _ g' => match g' with
                   | GEnt (Some k) _ t => wf_ty B k && wf_ty B t
                   | _ => false
                   end
  | GEnt k _ t => match k with Some k' => wf_ty B k' && wf_ty B t | None => false end
  | GRef n => is_group n && mg n && Nat.ltb (rho n) b
  end.

Definition rule_ok (n : name) (d : def) : bool :=
  Nat.ltb (rho n) B &&
  match d with
  | DType t => wf_ty (rho n) t
  | DGroup g => wf_seq (rho n) g && (negb (mg n) || wf_map (rho n) g)
  end.

(* the schema: every rule (prelude included) is well-founded at its own rank; the schema's own names
   are below 1000 (the prelude is not shadowed) *)
Definition wf_env_b : bool :=
  forallb (fun p => rule_ok (fst p) (snd p)) e && forallb (fun p => rule_ok (fst p) (snd p)) prelude &&
  forallb (fun p => N.ltb (fst p) 1000) e.

Hypothesis Hwf : wf_env_b = true.

Lemma rules_ok n d : lookup_all e n = Some d -> rule_ok n d = true.
Proof.
  apply andb_true_iff in Hwf as [[H1 H2]%andb_true_iff _].
  intros [L|L]%lookup_all_inv; [exact (lookup_forallb rule_ok e n d H1 L)|exact (lookup_forallb rule_ok prelude n d H2 L)].
Qed.

Lemma no_shadow n : N.le 1000 n -> lookup e n = None.
Proof.
  apply andb_true_iff in Hwf as [_ H3].
  intros Hn. destruct (lookup e n) as [d|] eqn:E; [|reflexivity].
  pose proof (lookup_forallb (fun n _ => N.ltb n 1000) e n d H3 E) as X. cbv beta in X.
  apply N.ltb_lt in X. lia.
Qed.

Lemma type_rule n : is_type n = true -> exists t, lookup_all e n = Some (DType t) /\ wf_ty (rho n) t = true.
Proof.
  unfold is_type. destruct (lookup_all e n) as [[t|g]|] eqn:L; try discriminate. intros _.
  exists t. split; [reflexivity|]. apply rules_ok, andb_true_iff in L as [_ X]. exact X.
Qed.

Lemma group_rule n : is_group n = true ->
  exists g, lookup_all e n = Some (DGroup g) /\ wf_seq (rho n) g = true /\ (mg n = true -> wf_map (rho n) g = true).
Proof.
  unfold is_group. destruct (lookup_all e n) as [[t|g]|] eqn:L; try discriminate. intros _.
  exists g. split; [reflexivity|]. apply rules_ok, andb_true_iff in L as [_ [X1 X2]%andb_true_iff].
  split; [exact X1|]. intros Hm. rewrite Hm in X2. exact X2.
Qed.

Definition is_str (v : value) : Prop := exists n, str_len v = Some n.
Definition is_num (v : value) : Prop := exists a, num4 v = Some a.
Definition is_uint (v : value) : Prop := exists z, v = VInt z /\ 0 <= z.

Lemma class_sound (P : ty -> bool) (nm : name -> bool) (Q : value -> Prop) :
  (forall t v, P t = true -> leaf jm t v = Some true -> Q v) ->
  (forall t, P t = true -> match t with
                           | TAny | TSimple _ | TTag _ _ | TArr _ | TMap _ => False
                           | TRef n => nm n = true
                           | TOr a b => P a = true /\ P b = true
                           | TCtl _ t' _ => P t' = true
                           | _ => True
                           end) ->
  (forall n, nm n = true -> N.le 1000 n) ->
  forallb (fun p => negb (nm (fst p)) || match snd p with DType t => P t | DGroup _ => false end) prelude = true ->
  forall f t v, P t = true -> vt f jm e t v = Some true -> Q v.
Proof.
  (* on the derivation that the answer stands for (vt_sound): a tag, an array or a map is not in the class, a
     reference of the class is to the prelude, a choice or a control passes on what its premise gives *)
  intros Hleaf Hshape Hge Hall f t v HP H%vt_sound. cbv iota in H.
  induction H as [t v L| |n t v L _ IH|a b v _ IH|a b v _ IH|c t arg v _ _ IH _ _|t arg v n _ _ IH _ _|c t arg v _ _ _ IH _| |];
    pose proof (Hshape _ HP) as Sh; try contradiction Sh.
  3-7: apply IH, Sh.
  - exact (Hleaf _ _ HP L).
  - unfold lookup_all in L. rewrite (no_shadow n (Hge n Sh)) in L.
    pose proof (lookup_forallb (fun n d => negb (nm n) || match d with DType t => P t | DGroup _ => false end) prelude n _ Hall L) as X.
    cbv beta iota in X. rewrite Sh in X. exact (IH X).
Qed.

(* the class is a boolean recursion of the shape [class_sound] asks for: in each case the hypothesis is its own body *)
Ltac class_shape :=
  intros t0 HP; destruct t0; try discriminate HP; try exact I; try exact HP; exact (proj1 (andb_true_iff _ _) HP).

Lemma str_sound f t v : str_ty t = true -> vt f jm e t v = Some true -> is_str v.
Proof.
  apply (class_sound str_ty str_name is_str).
  - intros t0 v0 HP H. destruct t0 as [| m | | | | l | | | | | |]; try discriminate; cbn [leaf] in H; injection H as H.
    + apply N.eqb_eq in H.
      destruct v0; cbn [major_of] in H; try (destruct (z <? 0)); subst m; try discriminate; eexists; reflexivity.
    + destruct l, v0; cbn [lit_matches] in H; try discriminate; eexists; reflexivity.
  - class_shape.
  - intros n. unfold str_name. rewrite andb_true_iff, !N.leb_le. lia.
  - vm_compute. reflexivity.
Qed.

Lemma num_sound f t v : num_ty t = true -> vt f jm e t v = Some true -> is_num v.
Proof.
  apply (class_sound num_ty num_name is_num).
  - intros t0 v0 HP H. destruct t0 as [| m | | | | l | lo hi incl | | | | |]; try discriminate; cbn [leaf] in H; injection H as H.
    + apply N.eqb_eq in H.
      destruct v0; cbn [major_of] in H; try (destruct (z <? 0)); subst m; try discriminate; eexists; reflexivity.
    + destruct v0; try discriminate; eexists; reflexivity.
    + destruct l, v0; cbn [lit_matches] in H; try discriminate; eexists; reflexivity.
    + destruct v0; cbn [in_range] in H; try discriminate; eexists; reflexivity.
  - class_shape.
  - intros n. unfold num_name. rewrite orb_true_iff, !andb_true_iff, !N.leb_le. lia.
  - vm_compute. reflexivity.
Qed.

Lemma uint_sound f t v : uint_ty t = true -> vt f jm e t v = Some true -> is_uint v.
Proof.
  apply (class_sound uint_ty uint_name is_uint).
  - intros t0 v0 HP H. destruct t0 as [| m | | | | l | lo hi incl | | | | |]; try discriminate; cbn [leaf] in H; injection H as H.
    + apply N.eqb_eq in H. cbn [uint_ty] in HP. apply N.eqb_eq in HP. subst m.
      destruct v0; cbn [major_of] in H; try discriminate. destruct (z <? 0) eqn:Ez; try discriminate.
      exists z. split; [reflexivity|lia].
    + destruct l as [z0| | |]; try discriminate. cbn [uint_ty] in HP.
      destruct v0; cbn [lit_matches] in H; try discriminate.
      exists z. split; [reflexivity|lia].
    + cbn [uint_ty] in HP. destruct v0; cbn [in_range] in H; try discriminate.
      apply andb_true_iff in H as [H _].
      exists z. split; [reflexivity|lia].
  - class_shape.
  - intros n. unfold uint_name. rewrite N.eqb_eq. lia.
  - vm_compute. reflexivity.
Qed.

Definition DecT (t : ty) (v : value) : Prop := MatchT jm e t v \/ FailT jm e t v.
Definition DecS (g : grp) (vs : list value) : Prop := (exists r, SeqOk jm e g vs r) \/ SeqFail jm e g vs.
Definition DecR (g : grp) (lo : N) (hi : option N) (c : N) (vs : list value) : Prop :=
  (exists r, RepOk jm e g lo hi c vs r) \/ RepFail jm e g lo hi c vs.

Lemma leaf_dec t v b : leaf jm t v = Some b -> DecT t v.
Proof. intros H. destruct b; [left; apply M_leaf|right; apply F_leaf]; exact H. Qed.

Lemma ctl_simple_dec c t arg v b : is_and c = false -> (c = CSize -> str_len v = None) -> MatchT jm e t v ->
  ctl_simple c arg v = Some b -> DecT (TCtl c t arg) v.
Proof. intros Ha Hs Mt H. destruct b; [left; apply M_ctl_simple|right; apply F_ctl_simple]; assumption. Qed.

(* greedy repetition: every iteration but a zero-width one shortens the sequence *)
Lemma rep_dec g lo hi : forall vs c, (forall vs', suffix vs' vs -> DecS g vs') -> DecR g lo hi c vs.
Proof.
  induction vs as [vs IH] using (induction_ltof1 _ (@length value)). unfold ltof in IH. intros c Hs.
  destruct (at_max hi c) eqn:Em; [left; exists vs; apply R_max; exact Em|].
  destruct (Hs vs (suffix_refl vs)) as [[r O]|F].
  - destruct (Nat.eq_dec (length r) (length vs)) as [El|El]; [left; exists vs; eapply R_zero; eassumption|].
    pose proof (seqok_suffix jm e g vs r O) as Sf. pose proof (suffix_length r vs Sf) as Hl.
    destruct (IH r ltac:(lia) (N.succ c) (fun vs' H' => Hs vs' (suffix_trans _ _ _ H' Sf))) as [[r' O']|F'].
    + left. exists r'. eapply R_step; eassumption.
    + right. eapply RF_step; eassumption.
  - destruct (N.leb lo c) eqn:El; [left; exists vs; apply R_stop|right; apply RF_stop]; assumption.
Qed.

Definition TotS (g : grp) (vs : list value) : Prop := exists f r, vseq f jm e g vs = r /\ r <> SFuel.
Definition TotR (g : grp) (lo : N) (hi : option N) (c : N) (vs : list value) : Prop :=
  exists f r, vrep f jm e g lo hi c vs = r /\ r <> SFuel.

Lemma TotS_dec g vs : TotS g vs -> DecS g vs.
Proof.
  intros (f & r & E & Hn). pose proof (proj1 (proj2 (sound jm e f)) g vs) as S. rewrite E in S.
  destruct r as [| |r]; [destruct Hn; reflexivity|right; exact S|left; exists r; exact S].
Qed.

Lemma vrep_total g lo hi : forall n vs c, (length vs <= n)%nat ->
  (forall vs', suffix vs' vs -> TotS g vs') -> TotR g lo hi c vs.
Proof.
  intros n vs c _ Hs.
  destruct (complete jm e) as (_ & _ & _ & _ & Ro & Rf & _).
  destruct (rep_dec g lo hi vs c (fun vs' H' => TotS_dec g vs' (Hs vs' H'))) as [[r O]|F].
  - destruct (Ro _ _ _ _ _ _ O) as [f E]. exists f, (SOk r). split; [exact E|discriminate].
  - destruct (Rf _ _ _ _ _ F) as [f E]. exists f, SFail. split; [exact E|discriminate].
Qed.

Definition ewf (en : entry) : Prop := wf_ty B (e_key en) = true /\ wf_ty B (e_val en) = true.
Definition alts_wf (alts : list (list entry)) : Prop := Forall (Forall ewf) alts.

Lemma flatten_total : forall b g, wf_map b g = true ->
  exists alts, Ev (fun f => flatten f e g = Some alts) /\ alts_wf alts.
Proof.
  induction b as [b IHb] using lt_wf_ind.
  induction g as [| x IHx y IHy | x IHx y IHy | lo hi g' _ | key c t | n]; cbn [wf_map]; intros Hg.
  - exists [[]]. split; [apply Ev_now; reflexivity|repeat constructor].
  - apply andb_true_iff in Hg as [Hx Hy].
    destruct (IHx Hx) as (a1 & E1 & W1). destruct (IHy Hy) as (a2 & E2 & W2). exists (prod_alts a1 a2).
    split; [|apply prod_alts_Forall; assumption]. apply (Ev_S2 E1 E2). intros f H1 H2. cbn [flatten]. rewrite H1, H2. reflexivity.
  - apply andb_true_iff in Hg as [Hx Hy].
    destruct (IHx Hx) as (a1 & E1 & W1). destruct (IHy Hy) as (a2 & E2 & W2). exists (a1 ++ a2).
    split; [|apply Forall_app; split; assumption]. apply (Ev_S2 E1 E2). intros f H1 H2. cbn [flatten]. rewrite H1, H2. reflexivity.
  - destruct g' as [| | | | [key|] c t |]; try discriminate. apply andb_true_iff in Hg.
    eexists. split; [apply Ev_now; reflexivity|]. repeat constructor; apply Hg.
  - destruct key as [key|]; try discriminate. apply andb_true_iff in Hg.
    eexists. split; [apply Ev_now; reflexivity|]. repeat constructor; apply Hg.
  - apply andb_true_iff in Hg as [[Hgr Hm]%andb_true_iff Hr%Nat.ltb_lt]. destruct (group_rule n Hgr) as (g' & L & _ & Wm).
    destruct (IHb (rho n) Hr g' (Wm Hm)) as (a1 & E1 & W1).
    exists a1. split; [|exact W1]. apply (Ev_S E1). intros f H1. cbn [flatten]. rewrite L. exact H1.
Qed.

(* a map whose pairs are smaller than sz, when every smaller value has a verdict against every type *)
Section Smaller.
Variable sz : nat.
Hypothesis D : forall t x, (vsize x < sz)%nat -> wf_ty B t = true -> DecT t x.

Lemma col_dec k v es : (vsize k + vsize v < sz)%nat -> Forall ewf es -> exists c, ColR jm e es k v c.
Proof.
  intros Hs W. induction W as [|en es [Wk Wv] _ [c IH]]; [exists []; constructor|].
  destruct (D _ k ltac:(lia) Wk) as [Mk|Fk]; [destruct (D _ v ltac:(lia) Wv) as [Mv|Fv]|];
    eexists; [apply C_kv|apply C_kvf|apply C_kfail]; eassumption.
Qed.

Lemma cols_dec es : Forall ewf es -> forall ps, (msize ps < sz)%nat -> exists cs, ColsR jm e es ps cs.
Proof.
  intros W. induction ps as [|[k v] ps IH]; intros Hs; [exists []; constructor|].
  change (vsize k + vsize v + msize ps < sz)%nat in Hs.
  destruct (col_dec k v es ltac:(lia) W) as [c Hc]. destruct (IH ltac:(lia)) as [cs Hcs].
  exists (c :: cs). constructor; assumption.
Qed.

Lemma alts_dec ps : (msize ps < sz)%nat -> forall alts, alts_wf alts -> AltsOk jm e alts ps \/ AltsFail jm e alts ps.
Proof.
  intros Hs. induction 1 as [|es alts Wes _ IH]; [right; constructor|].
  destruct (cols_dec es Wes ps Hs) as [cs Hcs]. destruct (decide_map es cs) eqn:Ed.
  - left. apply decide_map_spec in Ed as [a Ha]. eapply A_here; eassumption.
  - destruct IH as [O|F]; [left; apply A_later; exact O|right].
    eapply AF_cons; [exact Hcs|apply decide_map_false; exact Ed|exact F].
Qed.

End Smaller.

(* Lexicographic: the value shrinks under a tag, an array or a map; with the value fixed the rank of the rule
   shrinks at a reference; with both fixed the type does.  The target of a control has matched when its
   argument is looked at, and what matched tells the class of the value (str_sound, num_sound, uint_sound). *)
Lemma total_main : forall sz b,
  (forall t v, (vsize v < sz)%nat -> wf_ty b t = true -> DecT t v) /\
  (forall g vs, (lsize vs < sz)%nat -> wf_seq b g = true -> DecS g vs).
Proof.
  induction sz as [|sz IHsz]; [split; intros ? ? H; inversion H|]. induction b as [b IHb] using lt_wf_ind.
  apply ty_grp_ind.
  - intros t At v Hv Wt. destruct t; try discriminate At; try (eapply leaf_dec; reflexivity).
    apply andb_true_iff in Wt as [Hty Hr%Nat.ltb_lt].
    destruct (type_rule n Hty) as (t' & L & W).
    destruct (proj1 (IHb (rho n) Hr) t' v Hv W) as [M|F]; [left; eapply M_ref|right; eapply F_ref]; eassumption.
  - intros n t _ v Hv Wt.
    destruct v as [| | | | | | | | | n' v' |]; try (right; apply F_tag_other; discriminate).
    destruct (N.eq_dec n n') as [<-|Hn]; [|right; apply F_tag_other; congruence].
    cbn [vsize] in Hv. destruct (proj1 (IHsz B) t v' ltac:(lia) Wt) as [M|F];
      [left; apply M_tag; exact M|right; apply F_tag; exact F].
  - intros a c IHa IHc v Hv [Wa Wc]%andb_true_iff.
    destruct (IHa v Hv Wa) as [Ma|Fa]; [left; apply M_or1; exact Ma|].
    destruct (IHc v Hv Wc) as [Mc|Fc]; [left; apply M_or2; exact Mc|right; apply F_or; assumption].
  - intros c t arg IHt IHarg v Hv [Wt Hc]%andb_true_iff.
    destruct (IHt v Hv Wt) as [Mt|Ft]; [|right; apply F_ctl_target; exact Ft].
    destruct (proj1 (complete jm e) t v Mt) as [f Et].
    destruct c.
    2-5: (* comparisons *) apply andb_true_iff in Hc as [Hn Ha]; destruct (num_sound f t v Hn Et) as [x Hx];
         destruct arg as [| | | | | l | | | | | |]; try discriminate; cbn [num_lit_arg] in Ha;
         destruct (lit4 l) as [y|] eqn:Ey; try discriminate;
         (eapply ctl_simple_dec; [reflexivity|discriminate|exact Mt|]); cbn [ctl_simple]; rewrite Hx, Ey; reflexivity.
    2-3: (* .eq, .ne *) destruct arg as [| | | | | l | | | | | |]; try discriminate;
         (eapply ctl_simple_dec; [reflexivity|discriminate|exact Mt|]); reflexivity.
    2-3: (* .and, .within *) destruct (IHarg v Hv Hc) as [Ma|Fa];
         [left; apply M_ctl_and|right; apply F_ctl_and]; auto.
    (* .size *)
    apply orb_true_iff in Hc as [Hc|Hc]; apply andb_true_iff in Hc as [Hc1 Hc2].
    + destruct (str_sound f t v Hc1 Et) as [n Hn].
      assert (Hv2 : (2 <= vsize v)%nat) by (destruct v; try discriminate Hn; cbn [vsize]; lia).
      destruct (proj1 (IHsz B) arg (VInt n) ltac:(cbn [vsize]; lia) Hc2) as [Ma|Fa];
        [left; eapply M_ctl_size|right; eapply F_ctl_size]; eassumption.
    + destruct (uint_sound f t v Hc1 Et) as [z [-> Hz]].
      destruct arg as [| | | | | [n| | |] | | | | | |]; try discriminate. cbn [size_lit_arg] in Hc2.
      eapply ctl_simple_dec; [reflexivity|reflexivity|exact Mt|]. cbn [ctl_simple].
      apply Z.leb_le in Hz. rewrite Hz, Hc2. reflexivity.
  - intros g _ v Hv Wt.
    destruct v as [| | | | | | | l | | |]; try (right; apply F_arr_other; discriminate).
    rewrite vsize_arr in Hv.
    destruct (proj2 (IHsz B) g l ltac:(lia) Wt) as [[[|x r] O]|F];
      [left; apply M_arr; exact O|right; eapply F_arr_rest; exact O|right; apply F_arr_fail; exact F].
  - intros g _ v Hv Wt.
    destruct v as [| | | | | | | | ps | |]; try (right; apply F_map_other; discriminate).
    rewrite vsize_map in Hv.
    destruct (flatten_total B g Wt) as (alts & E0 & W0). destruct (Ev_ex E0) as [f0 Ef].
    destruct (alts_dec sz (proj1 (IHsz B)) ps ltac:(lia) alts W0) as [O|F];
      [left; eapply M_map; eassumption|right; eapply F_map; eassumption].
  - intros vs _ _. left. exists vs. apply S_empty.
  - intros x y IHx IHy vs Hv [Wx Wy]%andb_true_iff.
    destruct (IHx vs Hv Wx) as [[r O]|F]; [|right; apply SF_seq1; exact F].
    pose proof (lsize_suffix r vs (seqok_suffix jm e x vs r O)) as Hr.
    destruct (IHy r ltac:(lia) Wy) as [[r2 O2]|F2]; [left; exists r2; eapply S_seq|right; eapply SF_seq2]; eassumption.
  - intros x y IHx IHy vs Hv [Wx Wy]%andb_true_iff.
    destruct (IHx vs Hv Wx) as [[r O]|F]; [left; exists r; apply S_or1; exact O|].
    destruct (IHy vs Hv Wy) as [[r O]|F2]; [left; exists r; apply S_or2|right; apply SF_or]; assumption.
  - intros lo hi g IHg vs Hv Wg.
    destruct (rep_dec g lo hi vs 0%N) as [[r O]|F]; [|left; exists r; apply S_occ; exact O|right; apply SF_occ; exact F].
    intros vs' Hsuf. pose proof (lsize_suffix vs' vs Hsuf). apply IHg; [lia|exact Wg].
  - intros k c t _ IHt [|v r] Hv Wg; [right; apply SF_ent_nil|].
    change (vsize v + lsize r < S sz)%nat in Hv.
    destruct (IHt v ltac:(lia) Wg) as [M|F]; [left; exists r; apply S_ent; exact M|right; apply SF_ent; exact F].
  - intros n vs Hv [Hgr Hr%Nat.ltb_lt]%andb_true_iff.
    destruct (group_rule n Hgr) as (g' & L & W & _).
    destruct (proj2 (IHb (rho n) Hr) g' vs Hv W) as [[r O]|F]; [left; exists r; eapply S_ref|right; eapply SF_ref]; eassumption.
Qed.

Theorem spec_total t v : wf_ty B t = true -> MatchT jm e t v \/ FailT jm e t v.
Proof. intros Ht. exact (proj1 (total_main (S (vsize v)) B) t v (le_n _) Ht). Qed.

Theorem decider_total t v : wf_ty B t = true -> exists f r, vt f jm e t v = Some r.
Proof.
  intros Ht. destruct (complete jm e) as (Mt & Ft & _).
  destruct (spec_total t v Ht) as [M|F]; [destruct (Mt t v M) as [f E]|destruct (Ft t v F) as [f E]]; eauto.
Qed.

End Total.

Theorem semantics_total jm e rho B mg t v :
  wf_env_b e rho B mg = true -> wf_ty e rho B mg B t = true -> MatchT jm e t v \/ FailT jm e t v.
Proof. intros He. exact (spec_total jm e rho B mg He t v). Qed.

(* rank functions given as association lists, for concrete schemas *)
Definition rank_of (rk : list (name * nat)) (n : name) : nat :=
  match find (fun p => N.eqb (fst p) n) rk with Some p => snd p | None => O end.
Definition in_names (l : list name) (n : name) : bool := existsb (N.eqb n) l.

(* ranks of the prelude: aliases and unions above what they refer to *)
Definition prelude_ranks : list (name * nat) :=
  [ (1003%N, 1%nat); (1005%N, 1%nat); (1007%N, 1%nat); (1011%N, 1%nat); (1012%N, 2%nat); (1015%N, 1%nat); (1017%N, 1%nat) ].
