(* More fuel never changes an answer of the decider (mono); Ev, "at every sufficiently large fuel", and the
   combinators with which Complete.v and Total.v speak of fuel without arithmetic. *)
From Cddl Require Import Sem.Syntax Sem.Validator.

Definition Ev (P : nat -> Prop) : Prop := exists f0, forall f, (f0 <= f)%nat -> P f.

Lemma Ev_ex {P} : Ev P -> exists f, P f.
Proof. intros [f H]. exists f. apply H, le_n. Qed.

Lemma Ev_now {P : nat -> Prop} : (forall f, P (S f)) -> Ev P.
Proof. intros H. exists 1%nat. intros [|f] Hf; [inversion Hf|apply H]. Qed.

Lemma Ev_and {P Q : nat -> Prop} : Ev P -> Ev Q -> Ev (fun f => P f /\ Q f).
Proof. intros [f1 H1] [f2 H2]. exists (Nat.max f1 f2). intros f Hf. split; [apply H1|apply H2]; lia. Qed.

(* one step of the decider: what holds of the recursive calls at large fuel gives the caller's answer one later *)
Lemma Ev_S {P Q : nat -> Prop} : Ev P -> (forall f, P f -> Q (S f)) -> Ev Q.
Proof. intros [f0 H] HQ. exists (S f0). intros [|f] Hf; [inversion Hf|]. apply HQ, H, le_S_n, Hf. Qed.

Lemma Ev_S2 {P1 P2 Q : nat -> Prop} : Ev P1 -> Ev P2 -> (forall f, P1 f -> P2 f -> Q (S f)) -> Ev Q.
Proof. intros H1 H2 HQ. apply (Ev_S (Ev_and H1 H2)). intros f [A B]. exact (HQ f A B). Qed.

Lemma Ev_det {A} {F : nat -> A} {a b} : Ev (fun f => F f = a) -> Ev (fun f => F f = b) -> a = b.
Proof. intros Ha Hb. destruct (Ev_ex (Ev_and Ha Hb)) as [f [<- <-]]. reflexivity. Qed.

Lemma flatten_fuel_mono e : forall f f' g a, (f <= f')%nat -> flatten f e g = Some a -> flatten f' e g = Some a.
Proof.
  induction f as [|f IH]; intros [|f'] g a Hle H; try discriminate; [inversion Hle|].
  apply le_S_n in Hle. cbn [flatten] in *.
  destruct g as [| x y | x y | lo hi g' | k c t | n]; auto.
  1, 2: destruct (flatten f e x) eqn:E1; [|discriminate]; destruct (flatten f e y) eqn:E2; [|discriminate];
        rewrite (IH _ _ _ Hle E1), (IH _ _ _ Hle E2); exact H.
  destruct (lookup_all e n) as [[t|g']|]; eauto.
Qed.

Lemma flatten_ev {e f g a} : flatten f e g = Some a -> Ev (fun f => flatten f e g = Some a).
Proof. intros H. exists f. intros f' Hle. exact (flatten_fuel_mono e f f' g a Hle H). Qed.

Section Mono.
Variable jm : bool.
Variable e : env.

(* [pf : x <> out-of-fuel -> x' = x], x a recursive call at the lower fuel and x' the same call at the higher:
   case analysis on x; where x answered, x' is replaced by that answer *)
Ltac call pf :=
  let H := fresh in pose proof pf as H;
  match type of H with
  | ?x <> @None bool -> _ => destruct x as [[|]|]
  | ?x <> _ -> _ => destruct x as [| |?rest] || destruct x as [?res|]
  end; try rewrite H by discriminate; clear H.

Lemma mono : forall f f', (f <= f')%nat ->
  (forall t v, vt f jm e t v <> None -> vt f' jm e t v = vt f jm e t v) /\
  (forall g vs, vseq f jm e g vs <> SFuel -> vseq f' jm e g vs = vseq f jm e g vs) /\
  (forall g lo hi c vs, vrep f jm e g lo hi c vs <> SFuel -> vrep f' jm e g lo hi c vs = vrep f jm e g lo hi c vs) /\
  (forall es k v, vcol f jm e es k v <> None -> vcol f' jm e es k v = vcol f jm e es k v) /\
  (forall es ps, vcols f jm e es ps <> None -> vcols f' jm e es ps = vcols f jm e es ps) /\
  (forall alts ps, valts f jm e alts ps <> None -> valts f' jm e alts ps = valts f jm e alts ps).
Proof.
  induction f as [|f IH]; intros [|f'] Hle; try (repeat split; intros; cbn in *; congruence); [inversion Hle|].
  apply le_S_n in Hle. destruct (IH f' Hle) as (IHt & IHs & IHr & IHc & IHcs & IHa).
  (* in every case below a branch in which a needed call ran out of fuel contradicts H *)
  repeat split.
  - intros t v H. cbn [vt] in *.
    destruct t as [| m | n | | n t' | l | lo hi incl | n | a b | c t' arg | g | g]; auto.
    + destruct v; auto. destruct (N.eqb n n0); auto.
    + destruct (lookup_all e n) as [[t'|g']|]; auto.
    + (* an undecided arm does not hide the other: only the answered arms are known at the higher fuel *)
      call (IHt a v); call (IHt b v); try reflexivity; try (destruct H; reflexivity).
      destruct (vt f' jm e a v) as [[|]|]; reflexivity.
    + call (IHt t' v); [|reflexivity|destruct H; reflexivity].
      destruct (is_and c); auto. destruct c; auto. destruct (str_len v); auto.
    + destruct v; auto. call (IHs g l); try reflexivity. destruct H; reflexivity.
    + destruct v; auto. destruct (flatten f e g) as [alts|] eqn:Ef; [|destruct H; reflexivity].
      rewrite (flatten_fuel_mono e f f' g alts Hle Ef). auto.
  - intros g vs H. cbn [vseq] in *. destruct g as [| a b | a b | lo hi g' | k c t | n]; auto.
    + call (IHs a vs); auto. destruct H; reflexivity.
    + call (IHs a vs); auto. destruct H; reflexivity.
    + destruct vs as [|v r]; auto. call (IHt t v); try reflexivity. destruct H; reflexivity.
    + destruct (lookup_all e n) as [[t'|g']|]; auto.
  - intros g lo hi c vs H. cbn [vrep] in *. destruct (match hi with Some h => N.leb h c | None => false end); auto.
    call (IHs g vs); [destruct H; reflexivity|reflexivity|]. destruct (Nat.eqb (length rest) (length vs)); auto.
  - intros es k v H. cbn [vcol] in *. destruct es as [|en es]; auto.
    call (IHt (e_key en) k); [call (IHt (e_val en) v)| |]; try call (IHc es k v); try reflexivity; destruct H; reflexivity.
  - intros es ps H. cbn [vcols] in *. destruct ps as [|[k v] ps]; auto.
    call (IHc es k v); call (IHcs es ps); try reflexivity; destruct H; reflexivity.
  - intros alts ps H. cbn [valts] in *. destruct alts as [|es alts]; auto.
    call (IHcs es ps); [destruct (decide_map es res); auto|].
    (* the columns were undecided and a later alternative matched: it still does, whatever the columns are now *)
    call (IHa alts ps); try (destruct H; reflexivity).
    destruct (vcols f' jm e es ps) as [cols|]; [destruct (decide_map es cols)|]; reflexivity.
Qed.

Theorem vt_fuel_mono f f' t v b : (f <= f')%nat -> vt f jm e t v = Some b -> vt f' jm e t v = Some b.
Proof. intros Hle H. rewrite (proj1 (mono f f' Hle) t v); congruence. Qed.

End Mono.
