(* Every derivation of the semantics is found by the decider with enough fuel:
   together with Sound.v the decider is exactly the semantics. *)
From Cddl Require Import Sem.Syntax Sem.Validator Sem.Sem Sem.Sound Sem.Mono.

Section Complete.
Variable jm : bool.
Variable e : env.

(* one case per rule of Sem.v, in the order of its constructors: the premises hold from some fuel on, the
   conclusion one step later *)
Lemma complete_ev :
  (forall t v, MatchT jm e t v -> Ev (fun f => vt f jm e t v = Some true)) /\
  (forall t v, FailT jm e t v -> Ev (fun f => vt f jm e t v = Some false)) /\
  (forall g vs r, SeqOk jm e g vs r -> Ev (fun f => vseq f jm e g vs = SOk r)) /\
  (forall g vs, SeqFail jm e g vs -> Ev (fun f => vseq f jm e g vs = SFail)) /\
  (forall g lo hi c vs r, RepOk jm e g lo hi c vs r -> Ev (fun f => vrep f jm e g lo hi c vs = SOk r)) /\
  (forall g lo hi c vs, RepFail jm e g lo hi c vs -> Ev (fun f => vrep f jm e g lo hi c vs = SFail)) /\
  (forall es k v c, ColR jm e es k v c -> Ev (fun f => vcol f jm e es k v = Some c)) /\
  (forall es ps cs, ColsR jm e es ps cs -> Ev (fun f => vcols f jm e es ps = Some cs)) /\
  (forall alts ps, AltsOk jm e alts ps -> Ev (fun f => valts f jm e alts ps = Some true)) /\
  (forall alts ps, AltsFail jm e alts ps -> Ev (fun f => valts f jm e alts ps = Some false)).
Proof.
  apply sem_mutind.
  - intros t v H. apply Ev_now. intros f. cbn [vt]. destruct t; cbn in H; try discriminate; exact H.
  - intros n t v _ H. apply (Ev_S H). intros f E. cbn [vt]. rewrite N.eqb_refl. exact E.
  - intros n t v El _ H. apply (Ev_S H). intros f E. cbn [vt]. rewrite El. exact E.
  - intros a b v _ H. apply (Ev_S H). intros f E. cbn [vt]. rewrite E. reflexivity.
  - intros a b v _ H. apply (Ev_S H). intros f E. cbn [vt]. rewrite E. destruct (vt f jm e a v) as [[|]|]; reflexivity.
  - intros c t arg v Ea _ H1 _ H2. apply (Ev_S2 H1 H2). intros f E1 E2. cbn [vt]. rewrite E1, Ea. exact E2.
  - intros t arg v n Es _ H1 _ H2. apply (Ev_S2 H1 H2). intros f E1 E2. cbn [vt is_and]. rewrite E1, Es. exact E2.
  - intros c t arg v Ea Hs _ H Hc. apply (Ev_S H). intros f E. cbn [vt]. rewrite E, Ea.
    destruct c; try exact Hc; try discriminate. rewrite (Hs eq_refl). exact Hc.
  - intros g l _ H. apply (Ev_S H). intros f E. cbn [vt]. rewrite E. reflexivity.
  - intros g ps f0 alts Ef _ H. apply (Ev_S2 (flatten_ev Ef) H). intros f E1 E2. cbn [vt]. rewrite E1. exact E2.
  - intros t v H. apply Ev_now. intros f. cbn [vt]. destruct t; cbn in H; try discriminate; exact H.
  - intros n t v Hn. apply Ev_now. intros f. cbn [vt]. destruct v; auto. destruct (N.eqb n n0) eqn:E; auto.
    apply N.eqb_eq in E. subst. destruct (Hn v eq_refl).
  - intros n t v _ H. apply (Ev_S H). intros f E. cbn [vt]. rewrite N.eqb_refl. exact E.
  - intros n t v El _ H. apply (Ev_S H). intros f E. cbn [vt]. rewrite El. exact E.
  - intros a b v _ H1 _ H2. apply (Ev_S2 H1 H2). intros f E1 E2. cbn [vt]. rewrite E1, E2. reflexivity.
  - intros c t arg v _ H. apply (Ev_S H). intros f E. cbn [vt]. rewrite E. reflexivity.
  - intros c t arg v Ea _ H1 _ H2. apply (Ev_S2 H1 H2). intros f E1 E2. cbn [vt]. rewrite E1, Ea. exact E2.
  - intros t arg v n Es _ H1 _ H2. apply (Ev_S2 H1 H2). intros f E1 E2. cbn [vt is_and]. rewrite E1, Es. exact E2.
  - intros c t arg v Ea Hs _ H Hc. apply (Ev_S H). intros f E. cbn [vt]. rewrite E, Ea.
    destruct c; try exact Hc; try discriminate. rewrite (Hs eq_refl). exact Hc.
  - intros g v Hn. apply Ev_now. intros f. cbn [vt]. destruct v; auto. destruct (Hn l eq_refl).
  - intros g l _ H. apply (Ev_S H). intros f E. cbn [vt]. rewrite E. reflexivity.
  - intros g l x r _ H. apply (Ev_S H). intros f E. cbn [vt]. rewrite E. reflexivity.
  - intros g v Hn. apply Ev_now. intros f. cbn [vt]. destruct v; auto. destruct (Hn l eq_refl).
  - intros g ps f0 alts Ef _ H. apply (Ev_S2 (flatten_ev Ef) H). intros f E1 E2. cbn [vt]. rewrite E1. exact E2.
  - intros vs. apply Ev_now. reflexivity.
  - intros a b vs r1 r2 _ H1 _ H2. apply (Ev_S2 H1 H2). intros f E1 E2. cbn [vseq]. rewrite E1. exact E2.
  - intros a b vs r _ H. apply (Ev_S H). intros f E. cbn [vseq]. rewrite E. reflexivity.
  - intros a b vs r _ H1 _ H2. apply (Ev_S2 H1 H2). intros f E1 E2. cbn [vseq]. rewrite E1. exact E2.
  - intros lo hi g vs r _ H. apply (Ev_S H). intros f E. exact E.
  - intros k c t v r _ H. apply (Ev_S H). intros f E. cbn [vseq]. rewrite E. reflexivity.
  - intros n g vs r El _ H. apply (Ev_S H). intros f E. cbn [vseq]. rewrite El. exact E.
  - intros a b vs _ H. apply (Ev_S H). intros f E. cbn [vseq]. rewrite E. reflexivity.
  - intros a b vs r1 _ H1 _ H2. apply (Ev_S2 H1 H2). intros f E1 E2. cbn [vseq]. rewrite E1. exact E2.
  - intros a b vs _ H1 _ H2. apply (Ev_S2 H1 H2). intros f E1 E2. cbn [vseq]. rewrite E1. exact E2.
  - intros lo hi g vs _ H. apply (Ev_S H). intros f E. exact E.
  - intros k c t. apply Ev_now. reflexivity.
  - intros k c t v r _ H. apply (Ev_S H). intros f E. cbn [vseq]. rewrite E. reflexivity.
  - intros n g vs El _ H. apply (Ev_S H). intros f E. cbn [vseq]. rewrite El. exact E.
  - intros g lo hi c vs Hm. apply Ev_now. intros f. cbn [vrep]. fold (at_max hi c). rewrite Hm. reflexivity.
  - intros g lo hi c vs Hm _ H Hl. apply (Ev_S H). intros f E. cbn [vrep]. fold (at_max hi c). rewrite Hm, E, Hl. reflexivity.
  - intros g lo hi c vs r Hm _ H Hlen. apply (Ev_S H). intros f E. cbn [vrep]. fold (at_max hi c).
    rewrite Hm, E, Hlen, Nat.eqb_refl. reflexivity.
  - intros g lo hi c vs r r' Hm _ H1 Hlen _ H2. apply (Ev_S2 H1 H2). intros f E1 E2. cbn [vrep]. fold (at_max hi c).
    rewrite Hm, E1, (proj2 (Nat.eqb_neq _ _) Hlen). exact E2.
  - intros g lo hi c vs Hm _ H Hl. apply (Ev_S H). intros f E. cbn [vrep]. fold (at_max hi c). rewrite Hm, E, Hl. reflexivity.
  - intros g lo hi c vs r Hm _ H1 Hlen _ H2. apply (Ev_S2 H1 H2). intros f E1 E2. cbn [vrep]. fold (at_max hi c).
    rewrite Hm, E1, (proj2 (Nat.eqb_neq _ _) Hlen). exact E2.
  - intros k v. apply Ev_now. reflexivity.
  - intros en es k v c _ H1 _ H2. apply (Ev_S2 H1 H2). intros f E1 E2. cbn [vcol]. rewrite E1, E2. reflexivity.
  - intros en es k v c _ H1 _ H2 _ H3. apply (Ev_S2 (Ev_and H1 H2) H3). intros f [E1 E2] E3. cbn [vcol]. rewrite E1, E2, E3. reflexivity.
  - intros en es k v c _ H1 _ H2 _ H3. apply (Ev_S2 (Ev_and H1 H2) H3). intros f [E1 E2] E3. cbn [vcol]. rewrite E1, E2, E3. reflexivity.
  - intros es. apply Ev_now. reflexivity.
  - intros es k v ps c cs _ H1 _ H2. apply (Ev_S2 H1 H2). intros f E1 E2. cbn [vcols]. rewrite E1, E2. reflexivity.
  - intros es alts ps cols a _ H Hv. apply (Ev_S H). intros f E. cbn [valts]. rewrite E, (proj2 (decide_map_spec _ _) (ex_intro _ a Hv)). reflexivity.
  - intros es alts ps _ H. apply (Ev_S H). intros f E. cbn [valts]. rewrite E.
    destruct (vcols f jm e es ps) as [cols|]; auto. destruct (decide_map es cols); auto.
  - intros ps. apply Ev_now. reflexivity.
  - intros es alts ps cols _ H1 Hv _ H2. apply (Ev_S2 H1 H2). intros f E1 E2. cbn [valts]. rewrite E1, (proj2 (decide_map_false _ _) Hv). exact E2.
Qed.

Lemma complete :
  (forall t v, MatchT jm e t v -> exists f, vt f jm e t v = Some true) /\
  (forall t v, FailT jm e t v -> exists f, vt f jm e t v = Some false) /\
  (forall g vs r, SeqOk jm e g vs r -> exists f, vseq f jm e g vs = SOk r) /\
  (forall g vs, SeqFail jm e g vs -> exists f, vseq f jm e g vs = SFail) /\
  (forall g lo hi c vs r, RepOk jm e g lo hi c vs r -> exists f, vrep f jm e g lo hi c vs = SOk r) /\
  (forall g lo hi c vs, RepFail jm e g lo hi c vs -> exists f, vrep f jm e g lo hi c vs = SFail) /\
  (forall es k v c, ColR jm e es k v c -> exists f, vcol f jm e es k v = Some c) /\
  (forall es ps cs, ColsR jm e es ps cs -> exists f, vcols f jm e es ps = Some cs) /\
  (forall alts ps, AltsOk jm e alts ps -> exists f, valts f jm e alts ps = Some true) /\
  (forall alts ps, AltsFail jm e alts ps -> exists f, valts f jm e alts ps = Some false).
Proof.
  destruct complete_ev as (A1 & A2 & A3 & A4 & A5 & A6 & A7 & A8 & A9 & A10).
  repeat split; intros; apply Ev_ex; auto.
Qed.

Theorem vmodel_exact t v :
  (MatchT jm e t v <-> exists f, vt f jm e t v = Some true) /\
  (FailT jm e t v <-> exists f, vt f jm e t v = Some false).
Proof.
  split; split.
  - apply (proj1 complete).
  - intros [f H]. exact (vt_sound jm e f t v true H).
  - apply (proj1 (proj2 complete)).
  - intros [f H]. exact (vt_sound jm e f t v false H).
Qed.

End Complete.

Lemma decider_eq_sem jm e t jm' e' t' v : (forall f, vt f jm e t v = vt f jm' e' t' v) ->
  (MatchT jm e t v <-> MatchT jm' e' t' v) /\ (FailT jm e t v <-> FailT jm' e' t' v).
Proof.
  intros H. destruct (vmodel_exact jm e t v) as [M F], (vmodel_exact jm' e' t' v) as [M' F'].
  rewrite M, M', F, F'. split; split; intros [f Hf]; exists f; specialize (H f); congruence.
Qed.
