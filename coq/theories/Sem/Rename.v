(* C08, consistent renaming: renaming the rules of a schema by an injective map that leaves the
   prelude names alone changes no answer of the decider, at any fuel - hence no verdict of the
   specification. *)
From Cddl Require Import Sem.Syntax Sem.Validator Sem.Sem Sem.Complete Sem.Reach Sem.Congr.

Section Rename.
Variable s : name -> name.

Fixpoint ren (t : ty) : ty :=
  match t with
  | TRef n => TRef (s n)
  | TTag n t' => TTag n (ren t')
  | TOr a b => TOr (ren a) (ren b)
  | TCtl c a b => TCtl c (ren a) (ren b)
  | TArr g => TArr (gren g)
  | TMap g => TMap (gren g)
  | TAny | TMajor _ | TSimple _ | TFloat | TLit _ | TRange _ _ _ => t
  end
with gren (g : grp) : grp :=
  match g with
  | GEmpty => GEmpty
  | GSeq a b => GSeq (gren a) (gren b)
  | GOr a b => GOr (gren a) (gren b)
  | GOcc lo hi g' => GOcc lo hi (gren g')
  | GEnt k c t => GEnt (match k with Some k' => Some (ren k') | None => None end) c (ren t)
  | GRef n => GRef (s n)
  end.

Definition dren (d : def) : def := match d with DType t => DType (ren t) | DGroup g => DGroup (gren g) end.
Definition eren (e : env) : env := map (fun p => (s (fst p), dren (snd p))) e.
Definition enren (en : entry) : entry :=
  {| e_lo := e_lo en; e_hi := e_hi en; e_key := ren (e_key en); e_cut := e_cut en; e_val := ren (e_val en) |}.

Hypothesis Hinj : forall a b, s a = s b -> a = b.
Hypothesis Hfix : forall n, N.le 1000 n -> s n = n.

Definition high (n : name) : bool := N.leb 1000 n.

Fixpoint ren_high t : refs_in high t = true -> ren t = t
with gren_high g : grefs_in high g = true -> gren g = g.
Proof.
  - destruct t; cbn [ren refs_in]; intros H; try reflexivity.
    + rewrite (ren_high _ H). reflexivity.
    + rewrite (Hfix _ (proj1 (N.leb_le _ _) H)). reflexivity.
    + destruct (andb_prop _ _ H) as [Ha Hb]. rewrite (ren_high _ Ha), (ren_high _ Hb). reflexivity.
    + destruct (andb_prop _ _ H) as [Ha Hb]. rewrite (ren_high _ Ha), (ren_high _ Hb). reflexivity.
    + rewrite (gren_high _ H). reflexivity.
    + rewrite (gren_high _ H). reflexivity.
  - destruct g as [| a b | a b | lo hi g | k c t | n]; cbn [gren grefs_in]; intros H; try reflexivity.
    + destruct (andb_prop _ _ H) as [Ha Hb]. rewrite (gren_high _ Ha), (gren_high _ Hb). reflexivity.
    + destruct (andb_prop _ _ H) as [Ha Hb]. rewrite (gren_high _ Ha), (gren_high _ Hb). reflexivity.
    + rewrite (gren_high _ H). reflexivity.
    + destruct (andb_prop _ _ H) as [Hk Ht]. rewrite (ren_high _ Ht).
      destruct k as [k|]; [rewrite (ren_high _ Hk)|]; reflexivity.
    + rewrite (Hfix _ (proj1 (N.leb_le _ _) H)). reflexivity.
Qed.

Lemma dren_high d : def_refs_in high d = true -> dren d = d.
Proof.
  destruct d as [t|g]; cbn [def_refs_in dren]; intros H; [rewrite (ren_high _ H)|rewrite (gren_high _ H)]; reflexivity.
Qed.

Lemma s_eqb m n : N.eqb (s m) (s n) = N.eqb m n.
Proof. apply eq_true_iff_eq. rewrite !N.eqb_eq. split; [apply Hinj|congruence]. Qed.

Lemma lookup_ren (e : env) n : lookup (eren e) (s n) = option_map dren (lookup e n).
Proof.
  induction e as [|[m d] e IH]; [reflexivity|]. cbn [eren map fst snd lookup]. fold (eren e).
  rewrite s_eqb, IH. destruct (N.eqb m n); reflexivity.
Qed.

Lemma eren_prelude : eren prelude = prelude.
Proof.
  unfold eren. rewrite <- (map_id prelude) at 2. apply map_ext_in. intros [n d] Hin.
  pose proof (proj1 (forallb_forall (fun p => high (fst p) && def_refs_in high (snd p)) prelude)
                    ltac:(vm_compute; reflexivity) _ Hin) as X.
  apply andb_true_iff in X as [Hn Hd]. cbn [fst snd] in *.
  rewrite (Hfix n (proj1 (N.leb_le _ _) Hn)), (dren_high d Hd). reflexivity.
Qed.

Lemma lookup_all_ren e n : lookup_all (eren e) (s n) = option_map dren (lookup_all e n).
Proof.
  unfold lookup_all. rewrite lookup_ren. destruct (lookup e n) as [d|]; [reflexivity|].
  cbn [option_map]. rewrite <- (lookup_ren prelude n), eren_prelude. reflexivity.
Qed.

Definition aren (alts : list (list entry)) : list (list entry) := map (map enren) alts.

Lemma prod_alts_ren a b : prod_alts (aren a) (aren b) = aren (prod_alts a b).
Proof.
  unfold prod_alts, aren. induction a as [|x a IH]; [reflexivity|].
  cbn [map flat_map]. rewrite map_app, IH. f_equal.
  rewrite !map_map. apply map_ext. intros y. rewrite map_app. reflexivity.
Qed.

Lemma flatten_ren e : forall f g, flatten f (eren e) (gren g) = option_map aren (flatten f e g).
Proof.
  induction f as [|f IH]; intros g; [reflexivity|].
  cbn [flatten]. destruct g as [| x y | x y | lo hi g' | k c t | n]; cbn [gren flatten].
  - reflexivity.
  - rewrite (IH x), (IH y). destruct (flatten f e x); [|reflexivity]. destruct (flatten f e y); [|reflexivity].
    cbn [option_map]. rewrite prod_alts_ren. reflexivity.
  - rewrite (IH x), (IH y). destruct (flatten f e x); [|reflexivity]. destruct (flatten f e y); [|reflexivity].
    cbn [option_map]. unfold aren. rewrite map_app. reflexivity.
  - destruct g' as [| | | | [k|] c t |]; reflexivity.
  - destruct k as [k|]; reflexivity.
  - rewrite lookup_all_ren. destruct (lookup_all e n) as [[t|g']|]; try reflexivity. cbn [option_map dren]. apply IH.
Qed.

Lemma shape_ren es : map shape (map enren es) = map shape es.
Proof. rewrite map_map. reflexivity. Qed.

(* The same walk through the decider as Env.same: there the type stays and an invariant restricts it,
   here the type is renamed along with the rule set; the map-group search sees the members' shape only. *)
Lemma rename : forall jm e f,
  (forall t v, vt f jm (eren e) (ren t) v = vt f jm e t v) /\
  (forall g vs, vseq f jm (eren e) (gren g) vs = vseq f jm e g vs) /\
  (forall g lo hi c vs, vrep f jm (eren e) (gren g) lo hi c vs = vrep f jm e g lo hi c vs) /\
  (forall es k v, vcol f jm (eren e) (map enren es) k v = vcol f jm e es k v) /\
  (forall es ps, vcols f jm (eren e) (map enren es) ps = vcols f jm e es ps) /\
  (forall alts ps, valts f jm (eren e) (aren alts) ps = valts f jm e alts ps).
Proof.
  intros jm e. induction f as [|f (IHt & IHs & IHr & IHc & IHcs & IHa)].
  { repeat split; intros; reflexivity. }
  repeat split.
  - intros t v. destruct t as [| m | n | | n t' | l | lo hi incl | n | a b | c t' arg | g | g]; cbn [ren vt]; try reflexivity.
    + destruct v; try reflexivity. rewrite IHt. reflexivity.
    + rewrite lookup_all_ren. destruct (lookup_all e n) as [[t'|g']|]; try reflexivity. cbn [option_map dren]. apply IHt.
    + rewrite !IHt. reflexivity.
    + rewrite !IHt. destruct (vt f jm e t' v) as [[|]|], (is_and c), c, (str_len v); try reflexivity;
        try apply IHt; destruct arg; reflexivity.
    + destruct v; try reflexivity. rewrite IHs. reflexivity.
    + destruct v; try reflexivity. rewrite flatten_ren. destruct (flatten f e g); try reflexivity.
      cbn [option_map]. apply IHa.
  - intros g vs. destruct g as [| a b | a b | lo hi g' | k c t | n]; cbn [gren vseq]; try reflexivity.
    + rewrite IHs. destruct (vseq f jm e a vs); try reflexivity. apply IHs.
    + rewrite IHs. destruct (vseq f jm e a vs); try reflexivity. apply IHs.
    + apply IHr.
    + destruct vs as [|v r]; try reflexivity. rewrite IHt. reflexivity.
    + rewrite lookup_all_ren. destruct (lookup_all e n) as [[t'|g']|]; try reflexivity. cbn [option_map dren]. apply IHs.
  - intros g lo hi c vs. cbn [vrep].
    destruct (match hi with Some h => N.leb h c | None => false end); try reflexivity.
    rewrite IHs. destruct (vseq f jm e g vs) as [| |r]; try reflexivity.
    destruct (Nat.eqb (length r) (length vs)); try reflexivity. apply IHr.
  - intros es k v. destruct es as [|en es]; cbn [map vcol]; try reflexivity.
    cbn [enren e_key e_val]. rewrite !IHt, IHc. reflexivity.
  - intros es ps. cbn [vcols]. destruct ps as [|[k v] ps]; try reflexivity. rewrite IHc, IHcs. reflexivity.
  - intros alts ps. destruct alts as [|es alts]; cbn [aren map valts]; try reflexivity.
    fold (aren alts). rewrite IHcs, IHa. destruct (vcols f jm e es ps) as [cols|]; [|reflexivity].
    rewrite (decide_map_shape _ _ cols (shape_ren es)). reflexivity.
Qed.

End Rename.

Theorem rename_vt s jm e f t v :
  (forall a b, s a = s b -> a = b) -> (forall n, N.le 1000 n -> s n = n) ->
  vt f jm (eren s e) (ren s t) v = vt f jm e t v.
Proof. intros Hi Hf. exact (proj1 (rename s Hi Hf jm e f) t v). Qed.

Theorem rename_sem s jm e t v :
  (forall a b, s a = s b -> a = b) -> (forall n, N.le 1000 n -> s n = n) ->
  (MatchT jm (eren s e) (ren s t) v <-> MatchT jm e t v) /\ (FailT jm (eren s e) (ren s t) v <-> FailT jm e t v).
Proof. intros Hi Hf. apply decider_eq_sem. intros f. apply rename_vt; assumption. Qed.
