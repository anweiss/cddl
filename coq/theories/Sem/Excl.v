(* The semantics is consistent: no type both matches and fails a value; the PEG sequence
   match is deterministic (one remainder).  Both derivations of a pair would be found by the
   decider from some fuel on (Complete.v), and the decider is a function. *)
From Cddl Require Import Sem.Syntax Sem.Sem Sem.Mono Sem.Complete.

Section Excl.
Variable jm : bool.
Variable e : env.

Lemma excl :
  (forall t v, MatchT jm e t v -> ~ FailT jm e t v) /\
  (forall t v, FailT jm e t v -> ~ MatchT jm e t v) /\
  (forall g vs r, SeqOk jm e g vs r -> (forall r', SeqOk jm e g vs r' -> r' = r) /\ ~ SeqFail jm e g vs) /\
  (forall g vs, SeqFail jm e g vs -> forall r, ~ SeqOk jm e g vs r) /\
  (forall g lo hi c vs r, RepOk jm e g lo hi c vs r -> (forall r', RepOk jm e g lo hi c vs r' -> r' = r) /\ ~ RepFail jm e g lo hi c vs) /\
  (forall g lo hi c vs, RepFail jm e g lo hi c vs -> forall r, ~ RepOk jm e g lo hi c vs r) /\
  (forall es k v c, ColR jm e es k v c -> forall c', ColR jm e es k v c' -> c' = c) /\
  (forall es ps cs, ColsR jm e es ps cs -> forall cs', ColsR jm e es ps cs' -> cs' = cs) /\
  (forall alts ps, AltsOk jm e alts ps -> ~ AltsFail jm e alts ps) /\
  (forall alts ps, AltsFail jm e alts ps -> ~ AltsOk jm e alts ps).
Proof.
  destruct (complete_ev jm e) as (Mt & Ft & So & Sf & Ro & Rf & Cr & Cs & Ao & Af).
  assert (T : forall t v, MatchT jm e t v -> ~ FailT jm e t v).
  { intros t v M F. discriminate (Ev_det (Mt _ _ M) (Ft _ _ F)). }
  assert (S : forall g vs r, SeqOk jm e g vs r -> ~ SeqFail jm e g vs).
  { intros g vs r O F. discriminate (Ev_det (So _ _ _ O) (Sf _ _ F)). }
  assert (R : forall g lo hi c vs r, RepOk jm e g lo hi c vs r -> ~ RepFail jm e g lo hi c vs).
  { intros g lo hi c vs r O F. discriminate (Ev_det (Ro _ _ _ _ _ _ O) (Rf _ _ _ _ _ F)). }
  assert (A : forall alts ps, AltsOk jm e alts ps -> ~ AltsFail jm e alts ps).
  { intros alts ps O F. discriminate (Ev_det (Ao _ _ O) (Af _ _ F)). }
  split; [exact T|]. split; [intros t v F M; exact (T t v M F)|].
  split. { intros g vs r O. split; [|exact (S g vs r O)]. intros r' O'. now injection (Ev_det (So _ _ _ O') (So _ _ _ O)). }
  split. { intros g vs F r O. exact (S g vs r O F). }
  split. { intros g lo hi c vs r O. split; [|exact (R g lo hi c vs r O)].
           intros r' O'. now injection (Ev_det (Ro _ _ _ _ _ _ O') (Ro _ _ _ _ _ _ O)). }
  split. { intros g lo hi c vs F r O. exact (R g lo hi c vs r O F). }
  split. { intros es k v c C c' C'. now injection (Ev_det (Cr _ _ _ _ C') (Cr _ _ _ _ C)). }
  split. { intros es ps cs C cs' C'. now injection (Ev_det (Cs _ _ _ C') (Cs _ _ _ C)). }
  split; [exact A|]. intros alts ps F O. exact (A alts ps O F).
Qed.

Theorem sem_exclusive t v : MatchT jm e t v -> FailT jm e t v -> False.
Proof. intros M F. exact (proj1 excl t v M F). Qed.

Theorem seq_det g vs r1 r2 : SeqOk jm e g vs r1 -> SeqOk jm e g vs r2 -> r1 = r2.
Proof. intros H1 H2. symmetry. exact (proj1 (proj1 (proj2 (proj2 excl)) g vs r1 H1) r2 H2). Qed.

End Excl.
