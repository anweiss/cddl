(* C08: naming at any position, generic instantiation = substitution by hand, and a choice spelled as "/=" increments. *)
From Cddl Require Import Sem.Syntax Sem.Validator Sem.Sem Sem.Env Sem.Transparent Sem.Reach Sem.Congr Sem.Identities.

Definition RefPair (e : env) (p q : ty) : Prop :=
  exists n, (p = TRef n /\ lookup_all e n = Some (DType q)) \/ (q = TRef n /\ lookup_all e n = Some (DType p)).

Lemma RefPair_sound jm e p q : RefPair e p q -> Eqv jm e p q.
Proof.
  intros [n [[-> L]|[-> L]]] v.
  - exact (ref_unfold jm e n q v L).
  - destruct (ref_unfold jm e n p v L) as [M F]. split; symmetry; assumption.
Qed.

Theorem naming_anywhere jm e t t' v : Cg (RefPair e) t t' ->
  (MatchT jm e t v <-> MatchT jm e t' v) /\ (FailT jm e t v <-> FailT jm e t' v).
Proof. intros Hc. exact (congruence jm e (RefPair e) t t' (RefPair_sound jm e) Hc v). Qed.

Section Subst.
Variable x : name.
Variable a : ty.

(* the argument of a control other than .and / .within is left alone: Cg has no rule for it *)
Fixpoint subst (t : ty) : ty :=
  match t with
  | TRef n => if N.eqb n x then a else t
  | TTag n t' => TTag n (subst t')
  | TOr p q => TOr (subst p) (subst q)
  | TCtl c t' arg => TCtl c (subst t') (if is_and c then subst arg else arg)
  | TArr g => TArr (gsubst g)
  | TMap g => TMap (gsubst g)
  | TAny | TMajor _ | TSimple _ | TFloat | TLit _ | TRange _ _ _ => t
  end
with gsubst (g : grp) : grp :=
  match g with
  | GEmpty => GEmpty
  | GSeq p q => GSeq (gsubst p) (gsubst q)
  | GOr p q => GOr (gsubst p) (gsubst q)
  | GOcc lo hi g' => GOcc lo hi (gsubst g')
  | GEnt k c t => GEnt (match k with Some k' => Some (subst k') | None => None end) c (subst t)
  | GRef n => GRef n
  end.

Definition ParamPair (p q : ty) : Prop := p = TRef x /\ q = a.

Fixpoint subst_cg t : Cg ParamPair t (subst t)
with gsubst_cg g : CgG ParamPair g (gsubst g).
Proof.
  - destruct t as [| m | n | | n t | l | lo hi incl | n | p q | c t arg | g | g]; cbn [subst]; try apply Cg_refl.
    + apply Cg_tag, subst_cg.
    + destruct (N.eqb n x) eqn:E; [|apply Cg_refl]. apply N.eqb_eq in E. subst n. apply Cg_base. split; reflexivity.
    + apply Cg_or; apply subst_cg.
    + destruct (is_and c) eqn:Ea; [apply Cg_ctl_and; [exact Ea| |]|apply Cg_ctl_target]; apply subst_cg.
    + apply Cg_arr, gsubst_cg.
    + apply Cg_map, gsubst_cg.
  - destruct g as [| p q | p q | lo hi g | [k|] c t | n]; cbn [gsubst]; try apply CgG_refl.
    + apply CgG_seq; apply gsubst_cg.
    + apply CgG_or; apply gsubst_cg.
    + apply CgG_occ, gsubst_cg.
    + apply CgG_ent_k; apply subst_cg.
    + apply CgG_ent_n, subst_cg.
Qed.

End Subst.

Definition other (x : name) (n : name) : bool := negb (N.eqb n x).

(* a generic rule instantiated (its parameter bound to the argument, as a rule that shadows everything
   else named x) against the same body with the argument substituted by hand *)
Theorem generic_is_substitution jm e x a t v :
  (forall n d, other x n = true -> lookup_all e n = Some d -> def_refs_in (other x) d = true) ->   (* no rule mentions the parameter *)
  refs_in (other x) (subst x a t) = true ->                                                   (* nor does the substituted body *)
  (MatchT jm ((x, DType a) :: e) t v <-> MatchT jm e (subst x a t) v) /\
  (FailT jm ((x, DType a) :: e) t v <-> FailT jm e (subst x a t) v).
Proof.
  intros Hrules Hfree.
  set (e1 := (x, DType a) :: e).
  assert (Lo : forall n, other x n = true -> lookup_all e1 n = lookup_all e n).
  { intros n Hn. apply negb_true_iff in Hn. unfold e1. rewrite lookup_all_cons, N.eqb_sym, Hn. reflexivity. }
  (* inside e1 the parameter and the argument are interchangeable anywhere *)
  assert (S1 : Eqv jm e1 t (subst x a t)).
  { apply (congruence jm e1 (ParamPair x a)); [|apply subst_cg].
    intros p q [-> ->] v0. apply ref_unfold. unfold e1. rewrite lookup_all_cons, N.eqb_refl. reflexivity. }
  destruct (S1 v) as [M F]. rewrite M, F.
  (* the substituted type does not mention x, so the binding is unreachable *)
  apply (reach_sem (other x)); [exact Lo| |exact Hfree].
  intros n d Hn L. rewrite (Lo n Hn) in L. exact (Hrules n d Hn L).
Qed.

(* a choice spelled as a base rule plus "/=" increments (or as plugs of a socket) *)
Definition increments (base : ty) (incs : list ty) : ty := fold_left TOr incs base.

Theorem increments_match jm e : forall incs base v,
  MatchT jm e (increments base incs) v <-> MatchT jm e base v \/ Exists (fun a => MatchT jm e a v) incs.
Proof.
  induction incs as [|a incs IH]; intros base v; cbn [increments fold_left].
  - rewrite Exists_nil. tauto.
  - fold (increments (TOr base a) incs). rewrite IH, choice_or, Exists_cons. tauto.
Qed.

Theorem increments_fail jm e : forall incs base v,
  FailT jm e (increments base incs) v <-> FailT jm e base v /\ Forall (fun a => FailT jm e a v) incs.
Proof.
  induction incs as [|a incs IH]; intros base v; cbn [increments fold_left].
  - rewrite Forall_nil_iff. tauto.
  - fold (increments (TOr base a) incs). rewrite IH, choice_fail, Forall_cons_iff. tauto.
Qed.
