(* What several proofs need of Syntax.v and Validator.v: name resolution, the normal form of map groups,
   the checks on an assignment, and the decider under a syntactic invariant. *)
From Cddl Require Import Sem.Syntax Sem.Validator.

Lemma lookup_forallb (P : name -> def -> bool) : forall e n d,
  forallb (fun p => P (fst p) (snd p)) e = true -> lookup e n = Some d -> P n d = true.
Proof.
  induction e as [|[m d0] e IH]; intros n d H L; [discriminate|].
  cbn [forallb fst snd] in H. apply andb_true_iff in H. destruct H as [H0 H1].
  cbn [lookup] in L. destruct (N.eqb m n) eqn:E.
  - apply N.eqb_eq in E. subst m. injection L as <-. exact H0.
  - eapply IH; eauto.
Qed.

Lemma lookup_all_inv e n d : lookup_all e n = Some d -> lookup e n = Some d \/ lookup prelude n = Some d.
Proof. unfold lookup_all. destruct (lookup e n); auto. Qed.

Lemma lookup_all_cons m d e n : lookup_all ((m, d) :: e) n = if N.eqb m n then Some d else lookup_all e n.
Proof. unfold lookup_all. cbn [lookup]. destruct (N.eqb m n); reflexivity. Qed.

Lemma lookup_all_ext e e' : (forall n, lookup e n = lookup e' n) -> forall n, lookup_all e n = lookup_all e' n.
Proof. intros H n. unfold lookup_all. rewrite H. reflexivity. Qed.

Lemma prelude_no_group n g : lookup prelude n <> Some (DGroup g).
Proof.
  intros L.
  pose proof (lookup_forallb (fun _ d => match d with DType _ => true | DGroup _ => false end) prelude n _
                             ltac:(vm_compute; reflexivity) L) as X.
  discriminate.
Qed.

Lemma prod_alts_Forall (P : entry -> Prop) a b :
  Forall (Forall P) a -> Forall (Forall P) b -> Forall (Forall P) (prod_alts a b).
Proof.
  intros Ha Hb. apply Forall_flat_map. apply (Forall_impl _ (P := Forall P)); [|exact Ha]. intros x Hx.
  apply Forall_map. apply (Forall_impl _ (P := Forall P)); [|exact Hb]. intros y Hy.
  apply Forall_app. split; assumption.
Qed.

Lemma valid_assign_iff es cols a :
  valid_assign es cols a = true <-> pairs_ok es cols a = true /\ counts_ok es 0 a = true.
Proof. apply andb_true_iff. Qed.

Lemma pairs_ok_Forall2 es : forall cols a,
  pairs_ok es cols a = true <-> Forall2 (fun col i => pair_ok es col i = true) cols a.
Proof.
  induction cols as [|col cols IH]; intros [|i a]; cbn [pairs_ok]; try (split; [discriminate|intros H; inversion H]).
  - split; constructor.
  - rewrite andb_true_iff, IH. split; [intros [H1 H2]; constructor; assumption|intros H; inversion H; auto].
Qed.

(* One type, two runs of the decider (modes jm / jm', rule sets e / e'): the answers are the same at every
   fuel, given a boolean property of types that computes through the type formers (Reach.refs_in is one), holds of the
   type, makes the modes agree on leaves and the rule sets on the references met, and passes to the rule bodies. *)
Section Same.
Variables (jm jm' : bool) (e e' : env) (It : ty -> bool) (Ig : grp -> bool).
Hypotheses
  (It_tag : forall n t, It (TTag n t) = It t)
  (It_or : forall a b, It (TOr a b) = It a && It b)
  (It_ctl : forall c a b, It (TCtl c a b) = It a && It b)
  (It_arr : forall g, It (TArr g) = Ig g)
  (It_map : forall g, It (TMap g) = Ig g)
  (Ig_seq : forall a b, Ig (GSeq a b) = Ig a && Ig b)
  (Ig_or : forall a b, Ig (GOr a b) = Ig a && Ig b)
  (Ig_occ : forall lo hi g, Ig (GOcc lo hi g) = Ig g)
  (Ig_ent : forall k c t, Ig (GEnt k c t) = match k with Some k' => It k' | None => true end && It t)
  (Hleaf : forall t v, It t = true -> leaf jm t v = leaf jm' t v)
  (Href : forall n, It (TRef n) = true ->
            lookup_all e n = lookup_all e' n /\ forall t, lookup_all e n = Some (DType t) -> It t = true)
  (Hgref : forall n, Ig (GRef n) = true ->
            lookup_all e n = lookup_all e' n /\ forall g, lookup_all e n = Some (DGroup g) -> Ig g = true).

Definition Ie (en : entry) : bool := It (e_key en) && It (e_val en).

Lemma flatten_same : forall f g, Ig g = true ->
  flatten f e g = flatten f e' g /\
  match flatten f e g with Some alts => Forall (Forall (fun en => Ie en = true)) alts | None => True end.
Proof.
  induction f as [|f IH]; intros g Hg; [split; [reflexivity|exact I]|].
  destruct g as [| x y | x y | lo hi g' | k c t | n]; cbn [flatten].
  - split; [reflexivity|repeat constructor].
  - rewrite Ig_seq in Hg. destruct (andb_prop _ _ Hg) as [Hx Hy]. destruct (IH x Hx) as [<- Wx], (IH y Hy) as [<- Wy].
    split; [reflexivity|]. destruct (flatten f e x), (flatten f e y); try exact I. exact (prod_alts_Forall _ _ _ Wx Wy).
  - rewrite Ig_or in Hg. destruct (andb_prop _ _ Hg) as [Hx Hy]. destruct (IH x Hx) as [<- Wx], (IH y Hy) as [<- Wy].
    split; [reflexivity|]. destruct (flatten f e x), (flatten f e y); try exact I. apply Forall_app. split; assumption.
  - split; [reflexivity|]. destruct g' as [| | | | [k|] c t |]; try exact I. rewrite Ig_occ, Ig_ent in Hg.
    repeat constructor. exact Hg.
  - split; [reflexivity|]. destruct k as [k|]; [|exact I]. rewrite Ig_ent in Hg. repeat constructor. exact Hg.
  - destruct (Hgref n Hg) as [<- Hn]. destruct (lookup_all e n) as [[t|g']|]; try (split; [reflexivity|exact I]).
    exact (IH g' (Hn _ eq_refl)).
Qed.

Theorem same : forall f,
  (forall t v, It t = true -> vt f jm e t v = vt f jm' e' t v) /\
  (forall g vs, Ig g = true -> vseq f jm e g vs = vseq f jm' e' g vs) /\
  (forall g lo hi c vs, Ig g = true -> vrep f jm e g lo hi c vs = vrep f jm' e' g lo hi c vs) /\
  (forall es k v, Forall (fun en => Ie en = true) es -> vcol f jm e es k v = vcol f jm' e' es k v) /\
  (forall es ps, Forall (fun en => Ie en = true) es -> vcols f jm e es ps = vcols f jm' e' es ps) /\
  (forall alts ps, Forall (Forall (fun en => Ie en = true)) alts -> valts f jm e alts ps = valts f jm' e' alts ps).
Proof.
  induction f as [|f (IHt & IHs & IHr & IHc & IHcs & IHa)]; [repeat split; reflexivity|].
  repeat split.
  - intros t v Ht.
    destruct t as [| m | n | | n t' | l | lo hi incl | n | a b | c t' arg | g | g]; cbn [vt]; try exact (Hleaf _ v Ht).
    + rewrite It_tag in Ht. destruct v; try reflexivity. rewrite (IHt _ _ Ht). reflexivity.
    + destruct (Href n Ht) as [<- Hn]. destruct (lookup_all e n) as [[t'|g']|]; try reflexivity.
      exact (IHt _ _ (Hn _ eq_refl)).
    + rewrite It_or in Ht. destruct (andb_prop _ _ Ht) as [Ha Hb]. rewrite (IHt _ v Ha), (IHt _ v Hb). reflexivity.
    + rewrite It_ctl in Ht. destruct (andb_prop _ _ Ht) as [Ha Hb]. rewrite (IHt _ v Ha), (IHt _ v Hb).
      destruct (vt f jm' e' t' v) as [[|]|], (is_and c), c, (str_len v); try reflexivity. exact (IHt _ _ Hb).
    + rewrite It_arr in Ht. destruct v; try reflexivity. rewrite (IHs _ _ Ht). reflexivity.
    + rewrite It_map in Ht. destruct v; try reflexivity. destruct (flatten_same f g Ht) as [<- Wf].
      destruct (flatten f e g) as [alts|]; [exact (IHa _ _ Wf)|reflexivity].
  - intros g vs Hg. destruct g as [| a b | a b | lo hi g' | k c t | n]; cbn [vseq]; try reflexivity.
    + rewrite Ig_seq in Hg. destruct (andb_prop _ _ Hg) as [Ha Hb]. rewrite (IHs _ vs Ha).
      destruct (vseq f jm' e' a vs); try reflexivity. exact (IHs _ _ Hb).
    + rewrite Ig_or in Hg. destruct (andb_prop _ _ Hg) as [Ha Hb]. rewrite (IHs _ vs Ha).
      destruct (vseq f jm' e' a vs); try reflexivity. exact (IHs _ _ Hb).
    + rewrite Ig_occ in Hg. exact (IHr _ _ _ _ _ Hg).
    + rewrite Ig_ent in Hg. destruct (andb_prop _ _ Hg) as [_ Hb], vs as [|v r]; try reflexivity.
      rewrite (IHt _ v Hb). reflexivity.
    + destruct (Hgref n Hg) as [<- Hn]. destruct (lookup_all e n) as [[t'|g']|]; try reflexivity.
      exact (IHs _ _ (Hn _ eq_refl)).
  - intros g lo hi c vs Hg. cbn [vrep]. rewrite (IHs _ vs Hg).
    destruct (match hi with Some h => N.leb h c | None => false end), (vseq f jm' e' g vs) as [| |r]; try reflexivity.
    destruct (Nat.eqb (length r) (length vs)); try reflexivity. exact (IHr _ _ _ _ _ Hg).
  - intros es k v Hes. destruct Hes as [|en es Hen Hes]; cbn [vcol]; [reflexivity|].
    destruct (andb_prop _ _ Hen) as [Hk Hv]. rewrite (IHt _ k Hk), (IHt _ v Hv), (IHc es k v Hes). reflexivity.
  - intros es ps Hes. destruct ps as [|[k v] ps]; cbn [vcols]; [reflexivity|].
    rewrite (IHc es k v Hes), (IHcs es ps Hes). reflexivity.
  - intros alts ps Ha. destruct Ha as [|es alts Hes Ha]; cbn [valts]; [reflexivity|].
    rewrite (IHcs es ps Hes), (IHa alts ps Ha). reflexivity.
Qed.

End Same.
