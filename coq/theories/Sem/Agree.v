(* C04: the two readings (JSON / CBOR) of the one decider differ only at the float leaf. *)
From Cddl Require Import Sem.Syntax Sem.Validator Sem.Sem Sem.Decides.

Theorem modes_differ_only_at_float_leaf t v :
  (t <> TFloat \/ forall z, v <> VInt z) -> leaf true t v = leaf false t v.
Proof.
  intros H. destruct t; try reflexivity. destruct v; try reflexivity.
  destruct H as [H|H]; [destruct (H eq_refl)|destruct (H z eq_refl)].
Qed.

Theorem both_decided e f t v bj bc :
  vt f true e t v = Some bj -> vt f false e t v = Some bc ->
  (bj = true <-> MatchT true e t v) /\ (bc = true <-> MatchT false e t v).
Proof.
  intros Hj Hc. split; [exact (proj1 (vmodel_decides true e f t v bj Hj))|exact (proj1 (vmodel_decides false e f t v bc Hc))].
Qed.
