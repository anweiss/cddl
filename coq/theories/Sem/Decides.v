(* Whenever the decider answers, its answer is the RFC verdict, in both directions. *)
From Cddl Require Import Sem.Syntax Sem.Validator Sem.Sem Sem.Sound Sem.Excl.

Theorem vmodel_decides jm e f t v b :
  vt f jm e t v = Some b ->
  (b = true <-> MatchT jm e t v) /\ (b = false <-> FailT jm e t v).
Proof.
  intros H. pose proof (vt_sound jm e f t v b H) as S.
  destruct b; split; split; intros X; auto; try discriminate; destruct (sem_exclusive jm e t v); assumption.
Qed.

(* the cursor algorithm of the array matcher is the PEG natural semantics *)
Theorem vseq_decides jm e f g vs :
  match vseq f jm e g vs with
  | SOk r => SeqOk jm e g vs r /\ (forall r', SeqOk jm e g vs r' -> r' = r) /\ ~ SeqFail jm e g vs
  | SFail => SeqFail jm e g vs /\ forall r, ~ SeqOk jm e g vs r
  | SFuel => True
  end.
Proof.
  pose proof (proj1 (proj2 (sound jm e f)) g vs) as S. unfold seq_sound in S.
  destruct (excl jm e) as (_ & _ & So & Sf & _).
  destruct (vseq f jm e g vs) as [| |r]; [exact I|split; [exact S|exact (Sf g vs S)]|split; [exact S|exact (So g vs r S)]].
Qed.

(* the empty schema (it has no root type rule): the code validates nothing and accepts; the model says "?" *)
Lemma verdict_no_root f jm v : verdict f jm [] v = [63%N].
Proof. reflexivity. Qed.
