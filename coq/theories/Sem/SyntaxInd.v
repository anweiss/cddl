(* Structural induction over types and groups together.  The principle Coq generates gives no hypothesis
   for the key of a member (an [option ty] inside [GEnt]); this one does. *)
From Cddl Require Import Sem.Syntax.

Definition atomic (t : ty) : bool :=
  match t with TTag _ _ | TOr _ _ | TCtl _ _ _ | TArr _ | TMap _ => false | _ => true end.

Lemma ty_grp_ind (P : ty -> Prop) (Q : grp -> Prop) :
  (forall t, atomic t = true -> P t) ->
  (forall n t, P t -> P (TTag n t)) ->
  (forall a b, P a -> P b -> P (TOr a b)) ->
  (forall c t arg, P t -> P arg -> P (TCtl c t arg)) ->
  (forall g, Q g -> P (TArr g)) ->
  (forall g, Q g -> P (TMap g)) ->
  Q GEmpty ->
  (forall a b, Q a -> Q b -> Q (GSeq a b)) ->
  (forall a b, Q a -> Q b -> Q (GOr a b)) ->
  (forall lo hi g, Q g -> Q (GOcc lo hi g)) ->
  (forall k c t, match k with Some k' => P k' | None => True end -> P t -> Q (GEnt k c t)) ->
  (forall n, Q (GRef n)) ->
  (forall t, P t) /\ (forall g, Q g).
Proof.
  intros Hat Htag Hor Hctl Harr Hmap Hemp Hseq Hgor Hocc Hent Href.
  pose (ft := fix ft (t : ty) : P t :=
      match t as t0 return P t0 with
      | TTag n t' => Htag n t' (ft t')
      | TOr a b => Hor a b (ft a) (ft b)
      | TCtl c t' arg => Hctl c t' arg (ft t') (ft arg)
      | TArr g => Harr g (fg g)
      | TMap g => Hmap g (fg g)
      | t0 => Hat t0 eq_refl
      end
    with fg (g : grp) : Q g :=
      match g as g0 return Q g0 with
      | GEmpty => Hemp
      | GSeq a b => Hseq a b (fg a) (fg b)
      | GOr a b => Hgor a b (fg a) (fg b)
      | GOcc lo hi g' => Hocc lo hi g' (fg g')
      | GEnt k c t => Hent k c t (match k with Some k' => ft k' | None => I end) (ft t)
      | GRef n => Href n
      end
    for ft).
  split; [exact ft|].
  induction g as [| | | | [k|] c t |]; auto.
Qed.
